(* C03 / C06 at engine level, soundness half: the fact a package publishes is a sound summary of its constraints --
   an importer working from facts never invents a flow that whole-graph analysis would not find. *)
From Coq Require Import List.
From NM Require Import Engine EngineSpec.
From NP Require Import SpecFacts EngineBasics EngineSound EngineMain ExportProofs.
Import ListNotations.

Definition csys_union (C D : csys) : csys := {| base := base C ++ base D; ctld := ctld C ++ ctld D |}.

(* an atom that the constraint system C entails *)
Definition derivable (C : csys) (a : atom) : Prop :=
  match a with
  | ASrc s => nilr C s
  | ASnk s => nonr C s
  | AEdge p c t => act C (AEdge p c t)
  | ADirect t => act C (ADirect t)
  end.

Lemma act_derivable C a : act C a -> derivable C a.
Proof. destruct a; cbn; auto; [apply act_src_nilr | apply nn_snk]. Qed.

Lemma base_derivable C a : In a (base C) -> derivable C a.
Proof. intros H. apply act_derivable. now left. Qed.

Lemma derivable_mono C C' a :
  (forall a, In a (base C) -> In a (base C')) -> (forall ka, In ka (ctld C) -> In ka (ctld C')) ->
  derivable C a -> derivable C' a.
Proof. intros Hb Hk. destruct a; cbn; [apply nilr_mono | apply nonr_mono | apply act_mono | apply act_mono]; auto. Qed.

Section Entail.
  Variables C C' : csys.
  Hypothesis Hb : forall a, In a (base C) -> derivable C' a.
  Hypothesis Hk : forall ka, In ka (ctld C) -> In ka (ctld C').

  Lemma entail_nilr s : nilr C s -> nilr C' s.
  Proof.
    induction 1 as [s Hin | k s Hin _ IH | p c t Hin _ IH | k p c t Hin _ IHk _ IHp].
    - exact (Hb _ Hin).
    - apply nr_csrc with k; auto.
    - exact (act_edge_nilr _ _ _ _ (Hb _ Hin) IH).
    - apply nr_cedge with k p t; auto.
  Qed.

  Lemma entail_act a : act C a -> derivable C' a.
  Proof.
    intros [Hin|[k [Hin Hn]]]; [exact (Hb _ Hin)|].
    apply act_derivable. right. exists k. split; [auto | now apply entail_nilr].
  Qed.

  Lemma entail_nonr s : nonr C s -> nonr C' s.
  Proof. induction 1 as [s Ha | p c t Ha _ IH]; [exact (entail_act _ Ha) | exact (nn_edge _ _ _ _ (entail_act _ Ha) IH)]. Qed.

  Theorem entail_flow : has_flow C -> has_flow C'.
  Proof.
    intros [[t Ha]|[s [H1 H2]]]; [left; exists t; exact (entail_act _ Ha)|].
    right. exists s. split; [now apply entail_nilr | now apply entail_nonr].
  Qed.
End Entail.

Section Summary.
  Variables (C1 : csys) (E : list atom) (D : csys).
  Hypothesis HE : forall a, In a E -> derivable C1 a.

  (* the importer's system: the summary atoms plus its own constraints *)
  Definition CE : csys := {| base := E ++ base D; ctld := ctld D |}.
  Definition CW : csys := csys_union C1 D.      (* whole-graph system *)

  Lemma nilr_D_r s : nilr {| base := base D; ctld := ctld D |} s -> nilr CW s.
  Proof. apply nilr_mono; cbn; intros; apply in_or_app; auto. Qed.

  Lemma CE_base a : In a (base CE) -> derivable CW a.
  Proof.
    intros H. apply in_app_or in H. destruct H as [H|H].
    - apply (derivable_mono C1); [| |exact (HE _ H)]; cbn; intros; apply in_or_app; auto.
    - apply base_derivable. cbn. apply in_or_app; auto.
  Qed.
  Lemma CE_ctld ka : In ka (ctld CE) -> In ka (ctld CW).
  Proof. cbn. intros H. apply in_or_app; auto. Qed.

  Theorem summary_sound : has_flow CE -> has_flow CW.
  Proof. exact (entail_flow _ _ CE_base CE_ctld). Qed.
End Summary.

Section Modular.
  Variable exported : site -> bool.
  Variables (facts : list (nat * fact)) (annots : list (site * bool)) (ts : list trigger).
  Let C1 := pkg_csys facts annots ts.

  Theorem exported_fact_derivable up st f :
    pkg_run_up facts annots ts up st -> export exported up (mp st) = Some (Some f) ->
    forall a, In a (atoms_of_fact f) -> derivable C1 a.
  Proof.
    intros HR He a Ha.
    pose proof (pkg_J _ _ _ _ (pkg_run_up_run _ _ _ _ _ HR)) as HJ. fold C1 in HJ.
    pose proof (pkg_run_nodup _ _ _ _ _ HR) as Hnd.
    apply export_inv in He. destruct He as [l [Ep E]]. assert (l = f) as -> by (destruct l; congruence).
    apply In_atoms_of_fact in Ha.
    destruct Ha as [[s [e [Hin ->]]]|[s [i [o [x [t [Hin H]]]]]]];
      destruct (export_pairs_sub _ _ _ _ _ _ Ep Hin) as [v0 [Hin0 Hrel]];
      apply (In_lookup_nodup _ _ _ Hnd) in Hin0; destruct v0 as [e0|i0 o0]; try contradiction.
    - subst e0. assert (Hd : det_l (mp st) s = Some e) by (unfold det_l; now rewrite Hin0).
      pose proof (just_reach _ _ _ (J1 _ _ _ HJ _ _ Hd)) as R. now destruct (eval_expl e).
    - destruct Hrel as [Hi Ho]. destruct H as [[Hx ->]|[Hx ->]]; cbn.
      + apply (J5o _ _ _ HJ). unfold outs_l. rewrite Hin0. now apply Ho.
      + apply (J5i _ _ _ HJ). unfold ins_l. rewrite Hin0. now apply Hi.
  Qed.

  (* modular analysis never invents a flow: a flow the importer derives from this package's fact plus anything
     else it knows (D: other facts, its annotations and triggers) is a flow of this package's whole constraint
     graph combined with D *)
  Theorem modular_sound up st f D :
    pkg_run_up facts annots ts up st -> export exported up (mp st) = Some (Some f) ->
    has_flow (CE (atoms_of_fact f) D) -> has_flow (CW C1 D).
  Proof.
    intros HR He. apply summary_sound. eapply exported_fact_derivable; eauto.
  Qed.
End Modular.
