(* M12 (model/Nolint.v): a structured directive -- leading slashes and spaces, the word nolint, optionally a colon and a
   comma-separated linter list with spaces around the items, optionally an explanation after " //" -- printed and handed to
   nolint_contains suppresses exactly if it has no list or the list names `nilaway` or `all` in any letter case. *)
From Coq Require Import List Bool PeanoNat.
From NM Require Import Nolint.
From NP Require Import ListFacts.
Import ListNotations.

Record item := { i_pre : nat; i_name : bytes; i_post : nat }.
Record directive := { d_lead : bytes; d_gap : nat; d_list : option (list item); d_expl : option bytes }.

Definition spaces (n : nat) : bytes := repeat c_space n.
Definition print_item (it : item) : bytes := spaces (i_pre it) ++ i_name it ++ spaces (i_post it).
Fixpoint join_comma (l : list bytes) : bytes :=
  match l with
  | [] => []
  | [x] => x
  | x :: r => x ++ c_comma :: join_comma r
  end.
Definition print_list (d : directive) : bytes :=
  match d_list d with None => [] | Some its => spaces (d_gap d) ++ c_colon :: join_comma (map print_item its) end.
Definition print_expl (d : directive) : bytes :=
  match d_expl d with None => [] | Some e => c_space :: c_slash :: c_slash :: e end.
Definition print (d : directive) : bytes := d_lead d ++ s_nolint ++ print_list d ++ print_expl d.

Definition name_ok (n : bytes) : bool := forallb (fun c => negb (mem c (c_colon :: c_comma :: c_slash :: ws))) n.
Definition wf (d : directive) : bool :=
  forallb (fun c => mem c [c_slash; c_space]) (d_lead d) &&
  match d_list d with None => true | Some its => forallb (fun it => name_ok (i_name it)) its end.

Definition names (it : item) : bool := fold_eqb (i_name it) s_all || fold_eqb (i_name it) s_nilaway.
Definition decide (d : directive) : bool := match d_list d with None => true | Some its => existsb names its end.

Definition avoids (S l : bytes) : bool := forallb (fun c => negb (mem c S)) l.

Lemma avoids_cons S c l : avoids S (c :: l) = true <-> mem c S = false /\ avoids S l = true.
Proof. unfold avoids. cbn [forallb]. now rewrite andb_true_iff, negb_true_iff. Qed.

Lemma avoids_one_cons s c l : avoids [s] (c :: l) = true <-> Nat.eqb c s = false /\ avoids [s] l = true.
Proof. rewrite avoids_cons. unfold mem. cbn [existsb]. now rewrite orb_false_r. Qed.

Lemma avoids_app S a b : avoids S (a ++ b) = avoids S a && avoids S b.
Proof. apply forallb_app. Qed.

Lemma avoids_sub S S' l : avoids S l = true -> forallb (fun c => mem c S) S' = true -> avoids S' l = true.
Proof.
  intros H Sub. apply forallb_forall. intros c I. apply (proj1 (forallb_forall _ _) H) in I.
  destruct (mem c S') eqn:M; [|reflexivity].
  apply existsb_eqb_in, (proj1 (forallb_forall _ _) Sub) in M. now rewrite M in I.
Qed.

Lemma spaces_avoids S n : mem c_space S = false -> avoids S (spaces n) = true.
Proof. intros H. induction n as [|n IH]; [reflexivity|]. apply avoids_cons. auto. Qed.

Lemma spaces_ws n : forallb (fun c => mem c ws) (spaces n) = true.
Proof. induction n; simpl; auto. Qed.

Lemma trim_left_app_set set l r : forallb (fun c => mem c set) l = true -> trim_left set (l ++ r) = trim_left set r.
Proof. induction l as [|c l IH]; simpl; auto. intros H. apply andb_prop in H. destruct H as [-> H]. auto. Qed.

Lemma trim_left_all set l : forallb (fun c => mem c set) l = true -> trim_left set l = [].
Proof. intros H. rewrite <- (app_nil_r l). exact (trim_left_app_set set l [] H). Qed.

Lemma trim_left_head set c l : mem c set = false -> trim_left set (c :: l) = c :: l.
Proof. simpl. now intros ->. Qed.

Lemma trim_left_noset set l : avoids set l = true -> trim_left set l = l.
Proof. destruct l as [|c l]; [reflexivity|]. intros H. apply avoids_cons in H. now apply trim_left_head. Qed.

Lemma trim_left_nolint r : trim_left [c_slash; c_space] (s_nolint ++ r) = s_nolint ++ r.
Proof. reflexivity. Qed.

Lemma trim_right_nil_iff set l : trim_right set l = [] <-> forallb (fun c => mem c set) l = true.
Proof.
  induction l as [|c l IH]; simpl; [tauto|].
  destruct (trim_right set l) as [|x r] eqn:T.
  - destruct (mem c set); simpl; [rewrite <- IH; tauto|split; discriminate].
  - split; [discriminate|]. intros H. apply andb_prop in H. destruct H as [_ H]. apply IH in H. discriminate.
Qed.

Lemma trim_right_app_set set l r : forallb (fun c => mem c set) r = true -> trim_right set (l ++ r) = trim_right set l.
Proof.
  intros H. induction l as [|c l IH]; simpl.
  - now apply trim_right_nil_iff.
  - now rewrite IH.
Qed.

(* a byte outside the set shields everything before it *)
Lemma trim_right_keep set a c x : mem c set = false -> trim_right set (a ++ c :: x) = a ++ c :: trim_right set x.
Proof.
  intros H. induction a as [|y a IH]; cbn [app trim_right].
  - destruct (trim_right set x); [now rewrite H|reflexivity].
  - rewrite IH. destruct a; reflexivity.
Qed.

Lemma trim_right_last set l c : mem c set = false -> trim_right set (l ++ [c]) = l ++ [c].
Proof. intros H. now rewrite trim_right_keep. Qed.

Lemma trim_right_noset set l : avoids set l = true -> trim_right set l = l.
Proof.
  induction l as [|c l IH]; [reflexivity|]. intros H. apply avoids_cons in H. destruct H as [Hc Hl].
  cbn [trim_right]. rewrite (IH Hl). destruct l; [now rewrite Hc|reflexivity].
Qed.

Lemma trim_right_split set l : exists r, l = trim_right set l ++ r /\ forallb (fun c => mem c set) r = true.
Proof.
  induction l as [|c l (r & E & R)]; [now exists []|]. cbn [trim_right].
  destruct (trim_right set l) as [|x t]; cbn [app] in E.
  - destruct (mem c set) eqn:M; [exists (c :: r)|exists r]; cbn [app forallb]; now rewrite ?M, ?R, E.
  - exists r. cbn [app]. now rewrite <- E.
Qed.

Lemma trim_right_idem set l : trim_right set (trim_right set l) = trim_right set l.
Proof. destruct (trim_right_split set l) as (r & E & R). now rewrite <- (trim_right_app_set set _ r R), <- E. Qed.

Lemma trim_right_forallb (P : byte -> bool) set l : forallb P l = true -> forallb P (trim_right set l) = true.
Proof.
  destruct (trim_right_split set l) as (r & E & _). intros H. rewrite E, forallb_app in H. now apply andb_prop in H.
Qed.

Lemma trim_space_ws_l l r : forallb (fun c => mem c ws) l = true -> trim_space (l ++ r) = trim_space r.
Proof. intros H. unfold trim_space. now rewrite trim_left_app_set. Qed.

Lemma trim_space_ws_r l r : forallb (fun c => mem c ws) r = true -> trim_space (l ++ r) = trim_space l.
Proof.
  intros H. unfold trim_space. induction l as [|c l IH]; cbn [app trim_left].
  - now rewrite trim_left_all.
  - destruct (mem c ws); [exact IH|]. now rewrite app_comm_cons, trim_right_app_set.
Qed.

Lemma trim_space_noset l : avoids ws l = true -> trim_space l = l.
Proof. intros H. unfold trim_space. now rewrite trim_left_noset, trim_right_noset. Qed.

Lemma trim_space_trim_right l : trim_space (trim_right ws l) = trim_space l.
Proof. destruct (trim_right_split ws l) as (r & E & R). now rewrite <- (trim_space_ws_r _ r R), <- E. Qed.

Lemma trim_space_item it : name_ok (i_name it) = true -> trim_space (print_item it) = i_name it.
Proof.
  intros H. unfold print_item. rewrite trim_space_ws_l, trim_space_ws_r by apply spaces_ws.
  apply trim_space_noset. now apply (avoids_sub _ ws) in H.
Qed.

Lemma names_nilaway_item it : name_ok (i_name it) = true -> names_nilaway (print_item it) = names it.
Proof. intros H. unfold names_nilaway, names. now rewrite trim_space_item. Qed.

Lemma names_nilaway_trim_right l : names_nilaway (trim_right ws l) = names_nilaway l.
Proof. unfold names_nilaway. now rewrite trim_space_trim_right. Qed.

Fixpoint map_last {A} (f : A -> A) (l : list A) : list A :=
  match l with
  | [] => []
  | [x] => [f x]
  | x :: r => x :: map_last f r
  end.

Lemma map_last_cons {A} (f : A -> A) x y r : map_last f (x :: y :: r) = x :: map_last f (y :: r).
Proof. reflexivity. Qed.

Lemma existsb_map_last {A} (g : A -> bool) f l : (forall x, g (f x) = g x) -> existsb g (map_last f l) = existsb g l.
Proof.
  intros H. induction l as [|x [|y r] IH]; [reflexivity|cbn; now rewrite H|].
  rewrite map_last_cons. cbn [existsb]. now rewrite IH.
Qed.

Lemma split_nonempty sep l : split_on sep l <> [].
Proof. destruct l as [|c l]; cbn [split_on]; [discriminate|]. destruct (Nat.eqb c sep); [discriminate|]. destruct (split_on sep l); discriminate. Qed.

Lemma split_cons_sep sep l : split_on sep (sep :: l) = [] :: split_on sep l.
Proof. cbn [split_on]. now rewrite Nat.eqb_refl. Qed.

Lemma split_cons_other sep c l : Nat.eqb c sep = false ->
  split_on sep (c :: l) = match split_on sep l with p :: ps => (c :: p) :: ps | [] => [[c]] end.
Proof. intros N. cbn [split_on]. now rewrite N. Qed.

Lemma split_no_sep sep l : avoids [sep] l = true -> split_on sep l = [l].
Proof.
  induction l as [|c l IH]; [reflexivity|]. intros H. apply avoids_one_cons in H. destruct H as [Hc Hl].
  now rewrite split_cons_other, (IH Hl).
Qed.

Lemma split_app_sep sep a b : avoids [sep] a = true -> split_on sep (a ++ sep :: b) = a :: split_on sep b.
Proof.
  induction a as [|c a IH]; [intros _; apply split_cons_sep|]. intros H. apply avoids_one_cons in H. destruct H as [Hc Ha].
  cbn [app]. now rewrite split_cons_other, (IH Ha).
Qed.

(* a text is a piece without separator, or such a piece, a separator and a text *)
Lemma split_ind sep (P : bytes -> Prop) :
  (forall a, avoids [sep] a = true -> P a) -> (forall a b, avoids [sep] a = true -> P b -> P (a ++ sep :: b)) ->
  forall l, P l.
Proof.
  intros One More. assert (G : forall l a, avoids [sep] a = true -> P (a ++ l)); [|intros l; now apply (G l [])].
  induction l as [|c l IH]; intros a A.
  - rewrite app_nil_r. now apply One.
  - destruct (Nat.eqb_spec c sep) as [->|N].
    + apply More; [exact A|]. now apply (IH []).
    + change (a ++ c :: l) with (a ++ [c] ++ l). rewrite app_assoc. apply IH.
      rewrite avoids_app, A. apply avoids_one_cons. now rewrite <- Nat.eqb_neq in N.
Qed.

Lemma split_trim_right sep l : mem sep ws = false ->
  split_on sep (trim_right ws l) = map_last (trim_right ws) (split_on sep l).
Proof.
  intros Hs. induction l as [a A|a b A IH] using (split_ind sep).
  - rewrite !split_no_sep; [reflexivity|exact A|now apply trim_right_forallb].
  - (* a separator is never trimmed *)
    rewrite trim_right_keep by exact Hs. rewrite !split_app_sep, IH by exact A.
    destruct (split_on sep b) eqn:S; [now apply split_nonempty in S|reflexivity].
Qed.

Lemma join_cons x y r : join_comma (x :: y :: r) = x ++ c_comma :: join_comma (y :: r).
Proof. reflexivity. Qed.

Lemma join_avoids S ls : mem c_comma S = false -> (forall l, In l ls -> avoids S l = true) -> avoids S (join_comma ls) = true.
Proof.
  intros HS. induction ls as [|x [|y r] IH]; intros H; [reflexivity|apply H; now left|].
  rewrite join_cons, avoids_app, H by now left. apply avoids_cons. split; [exact HS|]. apply IH. intros; apply H; now right.
Qed.

Lemma item_avoids it : name_ok (i_name it) = true -> avoids [c_colon; c_comma; c_slash] (print_item it) = true.
Proof.
  intros H. unfold print_item. rewrite !avoids_app, !spaces_avoids by reflexivity.
  now apply (avoids_sub _ [c_colon; c_comma; c_slash]) in H as ->.
Qed.

Lemma items_avoid S its : forallb (fun c => mem c [c_colon; c_comma; c_slash]) S = true ->
  forallb (fun it => name_ok (i_name it)) its = true -> forall l, In l (map print_item its) -> avoids S l = true.
Proof.
  intros Sub H l I. apply in_map_iff in I. destruct I as (it & <- & I).
  apply (avoids_sub [c_colon; c_comma; c_slash]); [|exact Sub]. apply item_avoids. now apply (proj1 (forallb_forall _ _) H).
Qed.

Lemma split_join its : forallb (fun it => name_ok (i_name it)) its = true -> its <> [] ->
  split_on c_comma (join_comma (map print_item its)) = map print_item its.
Proof.
  intros H. pose proof (items_avoid [c_comma] its eq_refl H) as A. clear H.
  induction its as [|it [|it2 its] IH]; [congruence|intros _; apply split_no_sep, A; now left|]. intros _.
  cbn [map] in *. rewrite join_cons, split_app_sep by (apply A; now left).
  f_equal. apply IH; [intros; apply A; now right|discriminate].
Qed.

Lemma exists_names its : forallb (fun it => name_ok (i_name it)) its = true ->
  existsb names_nilaway (map_last (trim_right ws) (map print_item its)) = existsb names its.
Proof.
  rewrite existsb_map_last by apply names_nilaway_trim_right.
  induction its as [|it its IH]; [reflexivity|]. cbn [forallb map existsb]. intros H.
  apply andb_prop in H. destruct H as [Hi Hs]. now rewrite names_nilaway_item, IH.
Qed.

Lemma has_prefix_app p r : has_prefix p (p ++ r) = true.
Proof. induction p; cbn; auto. now rewrite Nat.eqb_refl. Qed.

Lemma before_dslash_cons a l : Nat.eqb a c_slash = false -> before_dslash (a :: l) = a :: before_dslash l.
Proof. intros H. destruct l; cbn [before_dslash]; now rewrite ?H. Qed.

Lemma before_dslash_app l r : avoids [c_slash] l = true -> before_dslash (l ++ r) = l ++ before_dslash r.
Proof.
  induction l as [|a l IH]; [reflexivity|]. intros H. apply avoids_one_cons in H. destruct H as [Ha Hl].
  cbn [app]. now rewrite before_dslash_cons, IH.
Qed.

(* the explanation is cut off; of what is printed for it at most the space before it is left, which is trimmed *)
Lemma text_before_expl b d : avoids [c_slash] b = true -> trim_space (before_dslash (b ++ print_expl d)) = trim_space b.
Proof.
  intros H. rewrite before_dslash_app by exact H. apply trim_space_ws_r.
  unfold print_expl. destruct (d_expl d); reflexivity.
Qed.

(* after the word nolint the text ends or goes on with a colon, a space or a tab (hd: the empty rest passes for a colon):
   the text up to the explanation is split at colons *)
Lemma nolint_contains_word lead r : forallb (fun c => mem c [c_slash; c_space]) lead = true ->
  mem (hd c_colon r) [c_colon; c_space; c_tab] = true ->
  nolint_contains (lead ++ s_nolint ++ r) =
  match split_on c_colon (trim_space (before_dslash (s_nolint ++ r))) with
  | p0 :: p1 :: _ => if negb (bytes_eqb (trim_space p0) s_nolint) then true else existsb names_nilaway (split_on c_comma p1)
  | _ => true
  end.
Proof.
  intros L M. unfold nolint_contains. rewrite trim_left_app_set by exact L. rewrite trim_left_nolint, has_prefix_app.
  destruct r as [|c r]; [reflexivity|].
  change (skipn 6 (s_nolint ++ c :: r)) with (c :: r). cbv iota. cbn [hd] in M. now rewrite M.
Qed.

(* a directive with a list, up to its explanation: the word with the gap, a colon, the list *)
Lemma list_text_parts d J : avoids [c_colon; c_slash] J = true ->
  split_on c_colon (trim_space (before_dslash (((s_nolint ++ spaces (d_gap d)) ++ c_colon :: J) ++ print_expl d))) =
  [s_nolint ++ spaces (d_gap d); trim_right ws J].
Proof.
  intros AJ. set (G := s_nolint ++ spaces (d_gap d)).
  assert (AG : avoids [c_colon; c_slash] G = true) by (unfold G; now rewrite avoids_app, spaces_avoids).
  rewrite text_before_expl.
  2:{ rewrite avoids_app, (avoids_sub _ [c_slash] _ AG eq_refl). apply avoids_cons.
      split; [reflexivity|exact (avoids_sub _ [c_slash] _ AJ eq_refl)]. }
  (* nothing is trimmed on the left; on the right the colon shields what is before it *)
  unfold trim_space. change (trim_left ws (G ++ c_colon :: J)) with (G ++ c_colon :: J).
  rewrite trim_right_keep by reflexivity.
  rewrite split_app_sep by exact (avoids_sub _ [c_colon] _ AG eq_refl).
  now rewrite split_no_sep by exact (trim_right_forallb _ _ _ (avoids_sub _ [c_colon] _ AJ eq_refl)).
Qed.

Theorem nolint_print_decide d : wf d = true -> nolint_contains (print d) = decide d.
Proof.
  intros W. unfold wf in W. apply andb_prop in W. destruct W as [WL WI].
  unfold print, decide, print_list. destruct (d_list d) as [its|].
  - rewrite nolint_contains_word by first [exact WL|destruct (d_gap d); reflexivity].
    rewrite (app_assoc s_nolint), (app_assoc s_nolint).
    rewrite list_text_parts by (apply join_avoids; [reflexivity|now apply items_avoid]).
    rewrite trim_space_ws_r by apply spaces_ws. change (negb (bytes_eqb (trim_space s_nolint) s_nolint)) with false.
    rewrite split_trim_right by reflexivity. destruct its as [|it its']; [reflexivity|].
    rewrite split_join by (auto; discriminate). now apply exists_names.
  - rewrite nolint_contains_word by first [exact WL|unfold print_expl; destruct (d_expl d); reflexivity].
    now rewrite (app_assoc s_nolint), text_before_expl.
Qed.

Theorem not_a_directive text :
  has_prefix s_nolint (trim_left [c_slash; c_space] text) = false -> nolint_contains text = false.
Proof. intros H. unfold nolint_contains. now rewrite H. Qed.

Theorem word_boundary text c r :
  skipn 6 (trim_left [c_slash; c_space] text) = c :: r -> mem c [c_colon; c_space; c_tab] = false ->
  nolint_contains text = false.
Proof.
  intros S M. unfold nolint_contains. destruct (has_prefix s_nolint _); auto. cbn [negb]. now rewrite S, M.
Qed.

Example nolint_examples :
  let d1 := {| d_lead := [c_slash; c_slash]; d_gap := 0; d_list := Some [{| i_pre := 0; i_name := [101; 114; 114]; i_post := 0 |}; {| i_pre := 1; i_name := [78; 105; 108; 65; 119; 97; 121]; i_post := 2 |}]; d_expl := Some [32; 119; 104; 121] |} in
  wf d1 = true /\ decide d1 = true /\ nolint_contains (print d1) = true /\
  nolint_contains ([c_slash; c_slash] ++ s_nolint ++ [108; 105; 110; 116]) = false.
Proof. vm_compute. repeat split. Qed.
