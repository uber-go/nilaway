(* C19: the short-circuit case of AddComputation (model/ShortCircuit.v) reports every dereference that can panic, on the class of
   expressions whose left operands are pure trees of the operator they stand under. *)
From Coq Require Import List Bool PeanoNat.
From NM Require Import ShortCircuit.
Import ListNotations.

Section Sound.
  Variable nilv : nat -> bool.
  Variable orc : nat -> bool.
  Notation ev := (eval nilv orc).

  Lemma discharge_keeps : forall v c acc, In c acc -> fst c <> v -> In c (discharge v acc).
  Proof.
    intros v c acc H N. unfold discharge. apply filter_In. split; [exact H|].
    apply negb_true_iff, Nat.eqb_neq. exact N.
  Qed.

  Lemma discharge_sub : forall v c acc, In c (discharge v acc) -> In c acc.
  Proof. intros v c acc H. unfold discharge in H. apply filter_In in H. tauto. Qed.

  Definition Surv (acc acc' : list consumer) : Prop := forall c, In c acc -> nilv (fst c) = true -> In c acc'.
  Definition Held (l : nat) (acc : list consumer) : Prop := exists v, nilv v = true /\ In (v, l) acc.

  Lemma Surv_trans : forall a b c, Surv a b -> Surv b c -> Surv a c.
  Proof. intros a b c H1 H2 x H N. apply H2; [apply H1|]; assumption. Qed.

  Lemma Held_surv : forall l acc acc', Surv acc acc' -> Held l acc -> Held l acc'.
  Proof. intros l acc acc' S [v [N H]]. exists v. split; [exact N|]. apply S; assumption. Qed.

  (* `&&` (b = true) and `||` (b = false) are treated alike: the operator goes on to its right operand when the left one
     is b, and applies the conclusions for the outcome b *)
  Definition node (b : bool) := if b then SAnd else SOr.
  Definition pure (b : bool) := if b then pure_and else pure_or.
  Definition apply_ (b : bool) := if b then apply_true else apply_false.

  Lemma proc_node : forall b x y acc, proc (node b x y) acc = proc x (apply_ b x (apply_ b y (proc y acc))).
  Proof. intros []; reflexivity. Qed.

  Lemma node_val : forall b x y, ev (node b x y) = Val b -> ev x = Val b /\ ev y = Val b.
  Proof. intros [] x y; cbn; destruct (ev x) as [[]|]; intros E; try discriminate E; auto. Qed.

  Lemma node_panic : forall b x y l, ev (node b x y) = Panic l -> ev x = Panic l \/ ev x = Val b /\ ev y = Panic l.
  Proof. intros [] x y l; cbn; destruct (ev x) as [[]|]; intros E; try discriminate E; auto. Qed.

  (* a conclusion is only drawn from an operand that evaluated accordingly: a consumer of a nil variable survives it *)
  Lemma apply_keeps : forall b e acc, conds_ok e -> ev e = Val b -> Surv acc (apply_ b e acc).
  Proof.
    intros b e acc K E c H N. destruct e as [v k| | | |]; try (destruct b; exact H).
    cbn in E, K. injection E as E.
    assert (D : forall t : bool, (t = true -> nilv v = false) -> In c (if t then discharge v acc else acc)).
    { intros [] D; [|exact H]. apply discharge_keeps; [exact H|]. intros Q. rewrite Q, D in N; [discriminate|reflexivity]. }
    destruct b; apply D; intros T; [apply (proj1 K T)|apply (proj2 K T)]; exact E.
  Qed.

  (* an operand that panics is not a condition *)
  Lemma apply_panic : forall b e l acc, ev e = Panic l -> apply_ b e acc = acc.
  Proof. intros b e l acc E; destruct b, e; try reflexivity; discriminate. Qed.

  Lemma der_panic : forall v l0 l acc, ev (SDer v l0) = Panic l -> Held l (proc (SDer v l0) acc).
  Proof.
    (* the oracle's index 1000 + l0 is a unary numeral: it is abstracted before the case analysis has to traverse it *)
    intros v l0 l acc. cbn [eval]. generalize (orc (1000 + l0)). intros o E.
    destruct (nilv v) eqn:N; [|discriminate E]. injection E as <-.
    exists v. split; [exact N|left; reflexivity].
  Qed.

  (* what an operand under the operator of polarity b owes the scope it is computed in *)
  Definition Sound (b : bool) (x : sexp) (acc : list consumer) : Prop :=
    (ev x = Val b -> Surv acc (proc x acc)) /\ (forall l, ev x = Panic l -> Held l (proc x acc)).

  Section Node.
    Variables (b : bool) (x y : sexp) (acc : list consumer).
    Hypothesis Kx : conds_ok x.
    Hypothesis Hx : forall a, Sound b x a.

    Lemma node_left : ev x = Val b -> Surv (apply_ b y (proc y acc)) (proc (node b x y) acc).
    Proof. intros Ex. rewrite proc_node. eapply Surv_trans; [exact (apply_keeps b x _ Kx Ex)|apply Hx, Ex]. Qed.

    Lemma node_held : (forall l, ev y = Panic l -> Held l (proc y acc)) ->
      forall l, ev (node b x y) = Panic l -> Held l (proc (node b x y) acc).
    Proof.
      intros Hy l E. destruct (node_panic _ _ _ _ E) as [Ex|[Ex Ey]].
      - rewrite proc_node. apply Hx, Ex.
      - apply (Held_surv _ _ _ (node_left Ex)). rewrite (apply_panic _ _ _ _ Ey). apply Hy, Ey.
    Qed.

    Lemma node_sound : conds_ok y -> Sound b y acc -> Sound b (node b x y) acc.
    Proof.
      intros Ky [Sy Hy]. split; [|exact (node_held Hy)].
      intros E. destruct (node_val _ _ _ E) as [Ex Ey].
      eapply Surv_trans; [exact (Sy Ey)|]. eapply Surv_trans; [exact (apply_keeps b y _ Ky Ey)|exact (node_left Ex)].
    Qed.
  End Node.

  (* pure trees of one operator, in a scope that already holds the consumers of operands to their right *)
  Lemma pure_sound : forall b x, pure b x = true -> conds_ok x -> forall acc, Sound b x acc.
  Proof.
    intros b. induction x as [v k|i|v l0|x IHx y IHy|x IHx y IHy]; intros P K acc.
    1, 2: split; [intros _ c H _; exact H|discriminate].
    1: split; [intros _ c H _; right; exact H|intros l; apply der_panic].
    all: destruct b; try discriminate P; apply andb_true_iff in P; destruct P as [Px Py], K as [Kx Ky].
    - exact (node_sound true x y acc Kx (IHx Px Kx) Ky (IHy Py Ky acc)).
    - exact (node_sound false x y acc Kx (IHx Px Kx) Ky (IHy Py Ky acc)).
  Qed.

  (* the whole expression, in its fresh scope *)
  Theorem left_pure_sound : forall e, left_pure e = true -> conds_ok e ->
    forall l, ev e = Panic l -> Held l (proc e []).
  Proof.
    induction e as [v k|i|v l0|x _ y IHy|x _ y IHy]; intros P K; cbn [left_pure] in P.
    1, 2: discriminate.
    1: intros l; apply der_panic.
    all: apply andb_true_iff in P; destruct P as [Px Py], K as [Kx Ky].
    - exact (node_held true x y [] Kx (pure_sound true x Px Kx) (IHy Py Ky)).
    - exact (node_held false x y [] Kx (pure_sound false x Px Kx) (IHy Py Ky)).
  Qed.
End Sound.

(* every dereference that can panic is reported *)
Theorem short_circuit_sound : forall e nilv orc l,
  left_pure e = true -> conds_ok e -> eval nilv orc e = Panic l -> In l (reported e).
Proof.
  intros e nilv orc l P K E. destruct (left_pure_sound nilv orc e P K l E) as [v [_ H]].
  unfold reported. apply in_map_iff. exists (v, l). split; [reflexivity|exact H].
Qed.

Lemma atomic_ok : forall eq, cond1_ok (atomic eq).
Proof. intros [|]; split; cbn; intros T n E; try discriminate; destruct n; auto; discriminate. Qed.

(* a nil check protects what it guards: the classic chains are silent *)
Example guarded_chain_silent :
  reported (SAnd (SAnd (SChk 0 false) (SDer 0 1)) (SDer 0 2)) = [] /\      (* p != nil && p.f == 1 && p.f == 2 *)
  reported (SOr (SChk 0 true) (SDer 0 1)) = [] /\                          (* p == nil || p.f == 1 *)
  reported (SAnd (SOpq 0) (SOr (SChk 0 true) (SDer 0 1))) = [] /\          (* c && (p == nil || p.f == 1): right-nested mix *)
  reported (SAnd (SOpq 0) (SDer 0 1)) = [1].                               (* c && p.f == 1 *)
Proof. repeat split. Qed.

(* outside the class the statement is false of the code (finding F104): the conclusion of a check nested in the LEFT operand
   of the other operator is applied to the right operand, which runs on the other outcome of the check as well *)
Definition f104a := SAnd (SOr (SChk 0 true) (SOpq 0)) (SDer 0 1).          (* (p == nil || c) && p.f == 1 *)
Definition f104b := SOr (SAnd (SChk 0 false) (SOpq 0)) (SDer 0 1).         (* (p != nil && c) || p.f == 1 *)
Theorem short_circuit_refuted_outside_class :
  (left_pure f104a = false /\ eval (fun _ => true) (fun _ => true) f104a = Panic 1 /\ reported f104a = []) /\
  (left_pure f104b = false /\ eval (fun _ => true) (fun _ => false) f104b = Panic 1 /\ reported f104b = []).
Proof. repeat split. Qed.

Example sound_nonvacuous :
  left_pure (SAnd (SAnd (SOpq 0) (SChk 1 false)) (SDer 0 7)) = true /\
  eval (fun _ => true) (fun _ => true) (SAnd (SAnd (SOpq 0) (SChk 1 false)) (SDer 0 7)) = Val false /\
  eval (fun v => Nat.eqb v 0) (fun _ => true) (SAnd (SAnd (SOpq 0) (SChk 1 false)) (SDer 0 7)) = Panic 7 /\
  reported (SAnd (SAnd (SOpq 0) (SChk 1 false)) (SDer 0 7)) = [7].
Proof. repeat split. Qed.

(* what follows the statement is untouched by the checks inside the expression (finding F100, repaired) *)
Theorem after_survives : forall e after c, In c after -> In c (proc_stmt e after).
Proof. intros e after c H. unfold proc_stmt. apply in_or_app. right. exact H. Qed.

(* ... which was false of the code before the repair: `b := c && p != nil; return p.f` *)
Example before_F100_refuted :
  proc_stmt_before_F100 (SAnd (SOpq 0) (SChk 0 false)) [(0, 9)] = [] /\
  proc_stmt (SAnd (SOpq 0) (SChk 0 false)) [(0, 9)] = [(0, 9)].
Proof. split; reflexivity. Qed.
