(* M15 proofs: stripping the escape sequences from the pretty-printed message gives back `error: ` and the plain message *)
From Coq Require Import List NArith Bool.
From NM Require Import Pretty.
Import ListNotations.
Open Scope N_scope.

Definition escfree (l : list N) : Prop := forall c, In c l -> c <> ESC.

Lemma escfree_cons c l : escfree (c :: l) -> c <> ESC /\ escfree l.
Proof. intros H. split; [apply H; now left|intros x Hx; apply H; now right]. Qed.

Lemma strip_csi : forall code acc b, forallb is_param code = true -> strip (SCsi acc) (code ++ CM :: b) = strip SNormal b.
Proof.
  induction code as [|c code IH]; intros acc b H.
  - cbn [app strip]. change (is_param CM) with false. cbn iota. rewrite N.eqb_refl. reflexivity.
  - cbn [forallb] in H. apply andb_true_iff in H. destruct H as [Hc H]. cbn [app strip]. rewrite Hc. apply IH. exact H.
Qed.

Lemma strip_normal_cons : forall c r, c <> ESC -> strip SNormal (c :: r) = c :: strip SNormal r.
Proof. intros c r H. cbn [strip]. destruct (N.eqb_spec c ESC); [contradiction|reflexivity]. Qed.

(* a byte that continues no escape sequence ends the one being read, and what was read of it is kept *)
Lemma strip_break : forall s c r, c <> LBR -> is_param c = false -> c <> CM ->
  strip s (c :: r) = flush s ++ strip SNormal (c :: r).
Proof.
  intros [| |b] c r H2 H3 H4; cbn [strip flush app].
  - reflexivity.
  - destruct (N.eqb_spec c LBR); [contradiction|reflexivity].
  - rewrite H3. destruct (N.eqb_spec c CM); [contradiction|reflexivity].
Qed.

Lemma strip_esc_any : forall s code b, forallb is_param code = true -> strip s (esc code ++ b) = flush s ++ strip SNormal b.
Proof.
  intros s code b H. unfold esc. cbn [app]. rewrite (strip_break s ESC) by (discriminate || reflexivity).
  rewrite <- app_assoc. f_equal. exact (strip_csi code [] b H).
Qed.

Lemma strip_esc : forall code b, forallb is_param code = true -> strip SNormal (esc code ++ b) = strip SNormal b.
Proof. intros code b H. exact (strip_esc_any SNormal code b H). Qed.

Lemma strip_escfree_app : forall a b, escfree a -> strip SNormal (a ++ b) = a ++ strip SNormal b.
Proof.
  induction a as [|c a IH]; intros b H; [reflexivity|]. apply escfree_cons in H. destruct H as [Hc Ha].
  cbn [app]. rewrite strip_normal_cons by exact Hc. f_equal. apply IH. exact Ha.
Qed.

Lemma strip_escfree : forall m, escfree m -> strip SNormal m = m.
Proof. intros m H. rewrite <- (app_nil_r m) at 1. rewrite strip_escfree_app by exact H. cbn [strip flush]. apply app_nil_r. Qed.

(* a delimiter pass is invisible to strip on EVERY byte string, from every state.
   No well-formedness of the input is needed: the opening escape is inserted right before a delimiter, the closing one right
   after a delimiter, and a delimiter (backtick, double quote) is none of ESC, `[`, a parameter byte, `m` -- reading it always
   leaves the strip automaton in SNormal, and an escape sequence in front of it is dropped from whatever state *)
Definition safe (c : N) : Prop := c <> ESC /\ c <> LBR /\ is_param c = false /\ c <> CM.

Lemma strip_safe : forall s d r, safe d -> strip s (d :: r) = flush s ++ d :: strip SNormal r.
Proof. intros s d r (H1 & H2 & H3 & H4). now rewrite strip_break, strip_normal_cons. Qed.

(* two texts that the remover cannot tell apart, whatever state it is in *)
Definition same_strip (Y Y' : list N) : Prop := forall s, strip s Y = strip s Y'.

Lemma strip_cong : forall buf Y Y', same_strip Y Y' -> same_strip (buf ++ Y) (buf ++ Y').
Proof.
  unfold same_strip. induction buf as [|c buf IH]; intros Y Y' H s; [apply H|].
  (* whatever the state does with c, it goes on reading buf ++ Y *)
  cbn [app]. destruct s as [| |b]; cbn [strip]; now rewrite !(IH Y Y' H).
Qed.

Lemma esc_before_safe : forall code d r, forallb is_param code = true -> safe d ->
  forall s, strip s (esc code ++ d :: r) = strip s (d :: r).
Proof. intros code d r H Hd s. rewrite strip_esc_any by exact H. now rewrite !strip_safe. Qed.

(* after a delimiter the remover is in SNormal *)
Lemma after_safe : forall d Y Y', safe d -> strip SNormal Y = strip SNormal Y' -> same_strip (d :: Y) (d :: Y').
Proof. intros d Y Y' Hd H s. rewrite !strip_safe by exact Hd. now rewrite H. Qed.

Lemma dpass_invisible : forall d co cc, safe d -> forallb is_param co = true -> forallb is_param cc = true ->
  forall l,
  (forall s, strip s (dpass d (esc co) (esc cc) Outside l) = strip s l) /\
  (forall buf s, strip s (dpass d (esc co) (esc cc) (Inside buf) l) = strip s (d :: buf ++ l)).
Proof.
  intros d co cc Hd Hco Hcc. induction l as [|c r [IHo IHi]]; split.
  - reflexivity.
  - intros buf s. cbn [dpass]. rewrite app_nil_r. reflexivity.
  - intros s. cbn [dpass]. destruct (N.eqb_spec c d) as [E|E].
    + subst c. rewrite IHi. reflexivity.
    + apply (strip_cong [c]). exact IHo.
  - intros buf s. cbn [dpass]. destruct (N.eqb_spec c d) as [E|E].
    + subst c. rewrite (esc_before_safe co d _ Hco Hd). apply (strip_cong (d :: buf)).
      apply after_safe; [exact Hd|]. rewrite strip_esc by exact Hcc. apply IHo.
    + destruct (N.eqb_spec c NL) as [E'|E'].
      * apply (strip_cong (d :: buf)), (strip_cong [c]). exact IHo.
      * rewrite IHi. rewrite <- app_assoc. reflexivity.
Qed.

Lemma safe_BQ : safe BQ. Proof. repeat split; discriminate. Qed.
Lemma safe_DQ : safe DQ. Proof. repeat split; discriminate. Qed.

Lemma code_pass_invisible : forall l s, strip s (code_pass l) = strip s l.
Proof. intros l. exact (proj1 (dpass_invisible BQ [57; 53] [48] safe_BQ eq_refl eq_refl l)). Qed.

Lemma path_pass_invisible : forall l s, strip s (path_pass l) = strip s l.
Proof. intros l. exact (proj1 (dpass_invisible DQ [51; 54] [48] safe_DQ eq_refl eq_refl l)). Qed.

Theorem code_pass_strip : forall m, escfree m -> strip SNormal (code_pass m) = m.
Proof. intros m H. rewrite code_pass_invisible. apply strip_escfree. exact H. Qed.

Theorem code_then_path_strip : forall m, escfree m -> strip SNormal (path_pass (code_pass m)) = m.
Proof. intros m H. rewrite path_pass_invisible, code_pass_invisible. apply strip_escfree. exact H. Qed.
Print Assumptions code_then_path_strip.

(* the nilability pass runs FIRST, on the ESC-free message: there the remover is always in SNormal, where a complete escape
   sequence is invisible wherever it is inserted -- so nothing about the matcher is needed, the lemma holds for every k *)
Lemma npass_escfree : forall co cc, forallb is_param co = true -> forallb is_param cc = true ->
  forall l k, escfree l -> strip SNormal (npass (esc co) (esc cc) k l) = l.
Proof.
  intros co cc Hco Hcc. induction l as [|c r IH]; intros k H; [destruct k; reflexivity|].
  apply escfree_cons in H. destruct H as [Hc Hr].
  (* each branch is c, perhaps behind an opening escape, and a rest that strips to r *)
  assert (A : forall j, strip SNormal match j with O => esc cc ++ npass (esc co) (esc cc) O r | S _ => npass (esc co) (esc cc) j r end = r)
    by (intros [|j]; [rewrite strip_esc by exact Hcc|]; apply IH; exact Hr).
  assert (B : forall t, strip SNormal t = r -> strip SNormal (c :: t) = c :: r) by (intros t <-; apply strip_normal_cons, Hc).
  cbn [npass]. destruct k as [|j]; [|apply B, A].
  destruct (match_len (c :: r)) as [[|j]|]; [|rewrite strip_esc by exact Hco|]; apply B; auto.
Qed.

(* C13, second sentence, for the model: stripping the escape sequences from the pretty-printed message gives back
   `error: ` followed by the plain message, for every message that contains no ESC byte itself *)
Theorem pretty_strip : forall m, escfree m -> strip SNormal (pretty m) = error_prefix ++ m.
Proof.
  intros m H. unfold pretty. rewrite strip_esc by reflexivity.
  fold error_prefix. rewrite strip_escfree_app.
  - f_equal. rewrite strip_esc by reflexivity. rewrite path_pass_invisible, code_pass_invisible.
    unfold nil_pass. apply npass_escfree; [reflexivity|reflexivity|exact H].
  - intros x Hx. unfold error_prefix in Hx. cbn [In] in Hx.
    repeat (destruct Hx as [<-|Hx]; [discriminate|]). destruct Hx.
Qed.
Print Assumptions pretty_strip.
