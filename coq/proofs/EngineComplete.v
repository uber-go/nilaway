(* Completeness invariant of the engine: as long as no conflict has been reported, every constraint
   submitted so far is either still pending on the work stack or already reflected in the valuation.
   At the end of a conflict-free run the valuation therefore satisfies every active constraint, which is
   impossible when a source reaches a sink (EngineMain.v draws that conclusion). *)
From Coq Require Import List.
From NM Require Import Engine EngineSpec.
From NP Require Import EngineBasics EngineStep SpecFacts.
Import ListNotations.

Definition pend (work : list item) (s : site) (b : bool) : Prop :=
  exists e, In (ISite s e) work /\ eval_expl e = b.
Definition Hval st work s (b : bool) := dv st s = Some b \/ pend work s b.
Definition Hsrc st work s := dv st s = Some true \/ pend work s true.
Definition Hsnk st work s := dv st s = Some false \/ pend work s false.
Definition Hedge st work p c :=
  (exists t, In (IImpl p c t) work) \/
  ((dv st p = Some true -> Hsrc st work c) /\
   (dv st c = Some false -> Hsnk st work p) /\
   (dv st p = None -> dv st c = None -> stored st p c)).
Definition Hatom st work (a : atom) : Prop :=
  match a with
  | ASrc s => Hsrc st work s
  | ASnk s => Hsnk st work s
  | AEdge p c _ => Hedge st work p c
  | ADirect _ => False
  end.
Definition pendT (work : list item) (a : atom) : Prop :=
  exists t, In (ITrig t) work /\ In a (atoms_of_trigger t).
Definition Hd st work a := pendT work a \/ Hatom st work a.
(* a pending site item contradicts a determined value: a conflict is inevitable *)
Definition Doomed st work := exists s b, dv st s = Some b /\ pend work s (negb b).

Record AllH (C : csys) st work : Prop := {
  ah_base : forall a, In a (base C) -> Doomed st work \/ Hd st work a;
  ah_ctld : forall k a, In (k, a) (ctld C) -> dv st k = Some true -> Doomed st work \/ Hd st work a }.

Definition Good (C : csys) st work : Prop := conflicts st = [] -> AllH C st work.

Definition Linked (C : csys) (l : list trigger) : Prop :=
  forall k a, In (k, a) (ctld C) -> exists t, In t l /\ t_ctrl t = Some k /\ In a (atoms_of_trigger t).

Lemma pend_cons it rest s b : pend (it :: rest) s b -> (exists e, it = ISite s e /\ eval_expl e = b) \/ pend rest s b.
Proof. intros [e [[H|H] E]]; [left; eauto | right; exists e; auto]. Qed.
Lemma pend_incl w w' s b : incl w w' -> pend w s b -> pend w' s b.
Proof. intros Hi [e [H E]]. exists e; auto. Qed.
Lemma pend_app_r new rest s b : pend rest s b -> pend (new ++ rest) s b.
Proof. apply pend_incl, incl_appr, incl_refl. Qed.
Lemma pend_app_l new rest s b : pend new s b -> pend (new ++ rest) s b.
Proof. apply pend_incl, incl_appl, incl_refl. Qed.

Lemma pend_nil s b : ~ pend [] s b.
Proof. intros [e [[] _]]. Qed.
Lemma Doomed_nil st : ~ Doomed st [].
Proof. intros [s [b [_ H]]]. eapply pend_nil; eauto. Qed.
Lemma Hval_nil st s b : Hval st [] s b -> dv st s = Some b.
Proof. intros [H|H]; [exact H | destruct (pend_nil _ _ H)]. Qed.

Lemma Hd_mono st st' w w' a : mp st = mp st' -> incl w w' -> Hd st w a -> Hd st' w' a.
Proof.
  intros E Hi.
  assert (Edv : forall x, dv st' x = dv st x) by (intros x; unfold dv; now rewrite E).
  assert (HV : forall s b, Hval st w s b -> Hval st' w' s b).
  { unfold Hval. intros s b [H|H]; [left; now rewrite Edv | right; eapply pend_incl; eauto]. }
  intros [[t [H Ha]]|H]; [left; exists t; auto | right].
  destruct a as [s|s|p c t|t]; cbn in *; try (now apply HV); auto.
  destruct H as [[t' H]|[K1 [K2 K3]]]; [left; eauto | right]. rewrite !Edv.
  split; [|split]; [intros D; apply HV, K1, D | intros D; apply HV, K2, D | unfold stored; rewrite <- E; exact K3].
Qed.

Lemma Hd_atom_of_item st w it a : In it w -> atom_of_item it = Some a -> Hd st w a.
Proof.
  intros Hin E. right. destruct it as [s e| |p c t]; cbn in E; inversion E; subst; clear E.
  - destruct (eval_expl e) eqn:Ev; right; exists e; auto.
  - left. eauto.
Qed.

Lemma Hval_step st it rest st1 new x b :
  step st it = (st1, new) -> conflicts st1 = [] -> Hval st (it :: rest) x b -> Hval st1 (new ++ rest) x b.
Proof.
  intros Hs Hc [H|H].
  - left. eapply step_dv_mono; eauto.
  - apply pend_cons in H. destruct H as [[e [-> E]]|H].
    + left. rewrite <- E. eapply step_site_noconf; eauto.
    + right. now apply pend_app_r.
Qed.

(* one direction of an edge x -> y (b = true: forwards along outs, b = false: backwards along ins), once x has value b *)
Lemma Hval_edge_step st it rest st1 new x y b :
  step st it = (st1, new) -> conflicts st1 = [] ->
  (dv st x = Some b -> Hval st (it :: rest) y b) ->
  (dv st y = Some (negb b) -> Hval st (it :: rest) x (negb b)) ->
  (dv st x = None -> dv st y = None -> exists t, In (y, t) (if b then outs_l (mp st) x else ins_l (mp st) x)) ->
  dv st1 x = Some b -> Doomed st1 (new ++ rest) \/ Hval st1 (new ++ rest) y b.
Proof.
  intros Hs Hc A B S D1. destruct (step_dv_frame _ _ _ _ x Hs) as [E|[e [-> [D0 [D1' ->]]]]].
  - right. eapply Hval_step; eauto. apply A. congruence.
  - assert (Ev : eval_expl e = b) by congruence.
    destruct (dv st y) as [b'|] eqn:Dy.
    + destruct (Bool.bool_dec b' b) as [->|N].
      * right; left. eapply step_dv_mono; eauto.
      * (* y has the opposite value: by B a site item for x with that value is pending, and x now has value b *)
        assert (Eb : b' = negb b) by (destruct b', b; cbn; congruence). subst b'.
        destruct (B eq_refl) as [H|H]; [congruence|]. apply pend_cons in H.
        destruct H as [[e0 [[= <-] E0]]|H]; [destruct b; congruence|].
        left. exists x, b. split; auto. now apply pend_app_r.
    + destruct (S D0 eq_refl) as [t Hin]. right; right. exists (EDeep t e). split; [|exact Ev].
      apply in_or_app; left. apply in_or_app; right. apply In_propagate. exists y, t. now rewrite Ev.
Qed.

(* the head item is the edge itself: its step reflects it in the valuation, in the work or in the map *)
Lemma Hedge_impl_step st p c t rest st1 new :
  step st (IImpl p c t) = (st1, new) -> Doomed st1 (new ++ rest) \/ Hedge st1 (new ++ rest) p c.
Proof.
  intros Hs. apply step_Step in Hs. unfold Hedge, Hsrc, Hsnk.
  inversion Hs as [| | | | |? ? ? e D E|? ? ? e D E|? ? ? e Dp D E|? ? ? e Dp D E|? ? ? Dp Dc]; subst.
  - (* p is nil and c is told so; if c is known to be non-nil that dooms the run *)
    pose proof (dv_det _ _ _ _ D E) as Vp.
    assert (P : pend ([ISite c (EDeep t e)] ++ rest) c true) by (exists (EDeep t e); split; [now left|exact E]).
    destruct (dv st1 c) as [[|]|] eqn:Vc; [|left; exists c, false; auto|]; right; right; (split; [|split]); auto; congruence.
  - pose proof (dv_det _ _ _ _ D E) as Vp.
    right; right. split; [|split]; auto; congruence.
  - pose proof (dv_undet _ _ Dp) as Vp.
    pose proof (dv_det _ _ _ _ D E) as Vc.
    right; right. split; [|split]; congruence.
  - (* c is non-nil and p is told so *)
    pose proof (dv_undet _ _ Dp) as Vp.
    pose proof (dv_det _ _ _ _ D E) as Vc.
    right; right. split; [|split]; try congruence. intros _. right. exists (EDeep t e). split; [now left|exact E].
  - right; right. rewrite !dv_store_impl, (dv_undet _ _ Dp), (dv_undet _ _ Dc). split; [|split]; try discriminate.
    intros _ _. apply stored_store_impl; auto.
Qed.

(* the three clauses held before the step: each of the first two is kept or dooms the run, the third is step_stored *)
Lemma Hedge_kept_step st it rest st1 new p c :
  step st it = (st1, new) -> conflicts st1 = [] ->
  (dv st p = Some true -> Hsrc st (it :: rest) c) -> (dv st c = Some false -> Hsnk st (it :: rest) p) ->
  (dv st p = None -> dv st c = None -> stored st p c) ->
  Doomed st1 (new ++ rest) \/ Hedge st1 (new ++ rest) p c.
Proof.
  intros Hs Hc K1 K2 K3.
  assert (S : dv st p = None -> dv st c = None ->
              (exists t, In (c, t) (outs_l (mp st) p)) /\ (exists t, In (p, t) (ins_l (mp st) c))).
  { intros Dp Dc. destruct (K3 Dp Dc) as [S1 S2]. split; now apply lookup_not_None_In. }
  assert (H1 : Doomed st1 (new ++ rest) \/ (dv st1 p = Some true -> Hsrc st1 (new ++ rest) c)).
  { destruct (dv st1 p) as [[|]|] eqn:D; try (right; discriminate).
    destruct (Hval_edge_step _ _ _ _ _ p c true Hs Hc K1 K2) as [H|H]; auto. intros; now apply S. }
  assert (H2 : Doomed st1 (new ++ rest) \/ (dv st1 c = Some false -> Hsnk st1 (new ++ rest) p)).
  { destruct (dv st1 c) as [[|]|] eqn:D; try (right; discriminate).
    destruct (Hval_edge_step _ _ _ _ _ c p false Hs Hc K2 K1) as [H|H]; auto. intros; now apply S. }
  destruct H1 as [H1|H1]; auto. destruct H2 as [H2|H2]; auto. right; right. split; [exact H1|split; [exact H2|]].
  intros Dp Dc. eapply step_stored; eauto. apply K3; eapply step_dv_none; eauto.
Qed.

Lemma Hedge_step st it rest st1 new p c :
  step st it = (st1, new) -> conflicts st1 = [] -> Hedge st (it :: rest) p c ->
  Doomed st1 (new ++ rest) \/ Hedge st1 (new ++ rest) p c.
Proof.
  intros Hs Hc [[t [Hin|Hin]]|[K1 [K2 K3]]].
  - subst it. eapply Hedge_impl_step; eauto.
  - right; left. exists t. apply in_or_app; auto.
  - eapply Hedge_kept_step; eauto.
Qed.

Lemma Hatom_item_of_atom st w i a : (forall j, a <> ADirect j) -> incl (item_of_atom i a) w -> Hatom st w a.
Proof.
  intros Hn Hi. destruct a as [s|s|p c t|t]; cbn in *.
  - right. exists (EShallow true i). split; auto. apply Hi. now left.
  - right. exists (EShallow false i). split; auto. apply Hi. now left.
  - left. exists t. apply Hi. now left.
  - eapply Hn; eauto.
Qed.

Lemma Hd_step st it rest st1 new a :
  step st it = (st1, new) -> conflicts st1 = [] -> Hd st (it :: rest) a ->
  Doomed st1 (new ++ rest) \/ Hd st1 (new ++ rest) a.
Proof.
  intros Hs Hc [[t [[Hin|Hin] Ha]]|H].
  - subst it. apply step_Step in Hs. inversion Hs as [| | |? D|? D| | | | |]; subst.
    + now apply app_eq_nil in Hc.
    + right; right. apply Hatom_item_of_atom with (t_id t); [intros j ->; eapply D; eauto|].
      intros x Hx. apply in_or_app; left. apply in_flat_map. eauto.
  - right; left. exists t. split; auto. apply in_or_app; auto.
  - destruct a as [s|s|p c t'|t']; cbn in H.
    + right; right. eapply Hval_step; eauto.
    + right; right. eapply Hval_step; eauto.
    + destruct (Hedge_step _ _ _ _ _ _ _ Hs Hc H); [left|right; right]; auto.
    + contradiction.
Qed.

Lemma Doomed_step st it rest st1 new :
  step st it = (st1, new) -> conflicts st1 = [] -> Doomed st (it :: rest) -> Doomed st1 (new ++ rest).
Proof.
  intros Hs Hc [s [b [Hd Hp]]]. apply pend_cons in Hp. destruct Hp as [[e [-> E]]|Hp].
  - pose proof (step_site_noconf _ _ _ _ _ Hs Hc) as H1.
    pose proof (step_dv_mono _ _ _ _ _ _ Hs Hd) as H2. rewrite E in H1. rewrite H1 in H2.
    inversion H2. destruct b; discriminate.
  - exists s, b. split; [eapply step_dv_mono; eauto | now apply pend_app_r].
Qed.

Lemma Good_step C st it rest st1 new :
  Linked C (ctl st) -> Good C st (it :: rest) -> step st it = (st1, new) -> Good C st1 (new ++ rest).
Proof.
  intros HL HG Hs Hc.
  assert (Hc0 : conflicts st = []) by (eapply step_conflicts_nil; eauto).
  destruct (HG Hc0) as [Hb Hk].
  assert (K : forall a, Doomed st (it :: rest) \/ Hd st (it :: rest) a -> Doomed st1 (new ++ rest) \/ Hd st1 (new ++ rest) a).
  { intros a [HD|H]; [left; eapply Doomed_step; eauto | eapply Hd_step; eauto]. }
  constructor.
  - intros a Ha. auto.
  - intros k a Ha Dk. destruct (step_dv_frame _ _ _ _ k Hs) as [E|[e [-> [_ [D1 ->]]]]].
    + apply K, (Hk k a Ha). congruence.
    + (* k has just become nilable: the step has activated the triggers it controls *)
      destruct (HL k a Ha) as [t [Ht [Hct Hat]]].
      right. left. exists t. split; auto. apply in_or_app; left. apply in_or_app; left.
      apply In_activate. split; [congruence|]. eauto.
Qed.
