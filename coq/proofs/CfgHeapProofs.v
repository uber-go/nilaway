(* C17: Preprocessor.CFG (model/CfgHeap.v) copies the graph and writes only to the copy: every cell that existed before is unchanged. *)
From Coq Require Import List PeanoNat Lia.
From NM Require Import CfgHeap.
From NP Require Import ListFacts.
Import ListNotations.

Definition heap_ok (h : heap) : Prop := forall a b, In (a, b) (cells h) -> a < h_next h.

Lemma hlookup_app l l' a : hlookup (l ++ l') a = match hlookup l a with Some b => Some b | None => hlookup l' a end.
Proof. induction l as [|[k b] l IH]; cbn; auto. destruct (Nat.eqb k a); auto. Qed.

Lemma hlookup_In l a b : hlookup l a = Some b -> In (a, b) l.
Proof.
  induction l as [|[k x] l IH]; cbn; [discriminate|]. destruct (Nat.eqb k a) eqn:E; intros H.
  - apply Nat.eqb_eq in E. inversion H; subst. auto.
  - auto.
Qed.

Lemma hlookup_hupdate_other l a a' b : a <> a' -> hlookup (hupdate l a b) a' = hlookup l a'.
Proof.
  intros H. induction l as [|[k x] l IH]; cbn; auto.
  destruct (Nat.eqb k a) eqn:E; cbn.
  - apply Nat.eqb_eq in E; subst k. destruct (Nat.eqb a a') eqn:E2; auto. apply Nat.eqb_eq in E2. congruence.
  - destruct (Nat.eqb k a'); auto.
Qed.

Lemma In_hupdate l a b k x : In (k, x) (hupdate l a b) -> exists y, In (k, y) l.
Proof.
  induction l as [|[k0 x0] l IH]; cbn; [tauto|].
  destruct (Nat.eqb k0 a); cbn; intros [H|H].
  - inversion H; subst. eauto.
  - eauto.
  - inversion H; subst. eauto.
  - destruct (IH H) as [y Hy]. eauto.
Qed.

Definition ext (mark : addr) (h h' : heap) : Prop :=
  (forall a, a < mark -> hlookup (cells h') a = hlookup (cells h) a) /\ h_next h <= h_next h' /\ heap_ok h'.

Lemma ext_refl mark h : heap_ok h -> ext mark h h.
Proof. intros H. split; [|split]; auto. Qed.

Lemma ext_trans mark h1 h2 h3 : ext mark h1 h2 -> ext mark h2 h3 -> ext mark h1 h3.
Proof. intros [A1 [B1 _]] [A2 [B2 O]]. split; [|split; [lia|exact O]]. intros a Ha. rewrite A2, A1; auto. Qed.

Lemma ext_fold {B} mark (f : heap -> B -> heap) l h :
  heap_ok h -> (forall h' x, In x l -> heap_ok h' -> ext mark h' (f h' x)) -> ext mark h (fold_left f l h).
Proof.
  intros Hok Hf. apply (fold_left_invariant (ext mark h)); [apply ext_refl, Hok|].
  intros h' x Hx E. eapply ext_trans; [exact E|]. apply Hf; [exact Hx|apply E].
Qed.

Lemma alloc_ext mark h b h' a : alloc h b = (h', a) -> heap_ok h -> mark <= h_next h ->
  ext mark h h' /\ a = h_next h /\ h_next h' = S a.
Proof.
  intros [= <- <-] Hok Hm. split; [|split; reflexivity]. split; [|split; [cbn; lia|]]; cbn.
  - intros a Ha. rewrite hlookup_app. destruct (hlookup (cells h) a); auto. cbn.
    destruct (Nat.eqb (h_next h) a) eqn:E; auto. apply Nat.eqb_eq in E. lia.
  - intros a x Hin. cbn in *. apply in_app_or in Hin. destruct Hin as [Hin|[Hin|[]]].
    + specialize (Hok a x Hin). lia.
    + inversion Hin; subst. lia.
Qed.

Lemma write_ext mark h a f : heap_ok h -> mark <= a -> ext mark h (write h a f).
Proof.
  intros Hok Ha. unfold write. destruct (hlookup (cells h) a) as [b|] eqn:E; [|apply ext_refl, Hok].
  split; [|split; [cbn; lia|]].
  - intros a' Ha'. apply hlookup_hupdate_other. lia.
  - intros k x Hin. cbn in *. destruct (In_hupdate _ _ _ _ _ Hin) as [y Hy]. eauto.
Qed.

Definition fresh_graph (mark : addr) (h : heap) (g : graph) : Prop := forall a, In a g -> mark <= a /\ a < h_next h.

Lemma fresh_ext mark h h' g : fresh_graph mark h g -> ext mark h h' -> fresh_graph mark h' g.
Proof. intros Hfr [_ [N _]] a Ha. destruct (Hfr a Ha). split; lia. Qed.

(* what the copy establishes and every rewriting write keeps: the cells of h below the mark are as they were, the graph
   at hand lies above the mark, and so does whatever is allocated next *)
Definition Inv (mark : addr) (h : heap) (hg : heap * graph) : Prop :=
  ext mark h (fst hg) /\ mark <= h_next (fst hg) /\ fresh_graph mark (fst hg) (snd hg).

Lemma inv_ext mark h h1 g h2 : Inv mark h (h1, g) -> ext mark h1 h2 -> Inv mark h (h2, g).
Proof.
  unfold Inv. cbn [fst snd]. intros (E & Hm & Hfr) E2. split; [exact (ext_trans _ _ _ _ E E2)|].
  split; [destruct E2 as [_ [N _]]; lia|exact (fresh_ext _ _ _ _ Hfr E2)].
Qed.

Lemma exec_inv mark h hg o : Inv mark h hg -> Inv mark h (exec hg o).
Proof.
  destruct hg as [h1 g]. intros I. pose proof I as (E & Hm & Hfr). cbn [fst snd] in *.
  destruct o as [i ns|i js|i v|ns js live]; cbn [exec].
  1-3: destruct (nth_error g i) as [a|] eqn:Ei; [|exact I]; apply nth_error_In in Ei;
       apply (inv_ext _ _ _ _ _ I), write_ext; [apply E|apply Hfr, Ei].
  destruct (alloc h1 _) as [h2 a] eqn:Ea. destruct (alloc_ext mark _ _ _ _ Ea (proj2 (proj2 E)) Hm) as [E2 [-> N]].
  destruct (inv_ext _ _ _ _ _ I E2) as (E' & Hm' & Hfr'). split; [exact E'|]. split; [exact Hm'|].
  cbn [fst snd] in *. intros x Hx. apply in_app_or in Hx. destruct Hx as [Hx|[<-|[]]]; [exact (Hfr' x Hx)|lia].
Qed.

Lemma copy_blocks_ext g : forall h mark, heap_ok h -> mark <= h_next h ->
  ext mark h (fst (copy_blocks h g)) /\
  (forall kv, In kv (snd (copy_blocks h g)) -> mark <= snd kv /\ snd kv < h_next (fst (copy_blocks h g))).
Proof.
  induction g as [|a g IH]; intros h mark Hok Hm; cbn [copy_blocks].
  - split; [apply ext_refl, Hok|intros kv []].
  - destruct (hlookup (cells h) a) as [b|]; [|apply IH; auto].
    destruct (alloc h _) as [h1 a'] eqn:Ea. destruct (alloc_ext mark _ _ _ _ Ea Hok Hm) as [E [-> N]].
    destruct (IH h1 mark (proj2 (proj2 E)) ltac:(lia)) as [E2 M2]. destruct (copy_blocks h1 g) as [h2 m].
    cbn [fst snd] in *. split; [exact (ext_trans _ _ _ _ E E2)|].
    intros kv [<-|H]; [|exact (M2 kv H)]. destruct E2 as [_ [N2 _]]. cbn [snd]. lia.
Qed.

Lemma copy_graph_inv h g : heap_ok h -> Inv (h_next h) h (copy_graph h g).
Proof.
  intros Hok. set (mark := h_next h). unfold copy_graph.
  destruct (copy_blocks_ext g h mark Hok (le_n _)) as [E1 M1]. destruct (copy_blocks h g) as [h1 m]. cbn [fst snd] in *.
  (* the copies, with h1: re-targeting their edges writes to them only *)
  assert (I1 : Inv mark h (h1, map snd m)).
  { split; [exact E1|]. split; [destruct E1 as [_ [N1 _]]; exact N1|].
    intros x Hx. apply in_map_iff in Hx. destruct Hx as [kv [<- Hin]]. apply M1, Hin. }
  apply (inv_ext _ _ _ _ _ I1), ext_fold; [apply E1|].
  intros hh kv Hin Ho. destruct (hlookup (cells h) (fst kv)); [|apply ext_refl, Ho]. apply write_ext; [exact Ho|apply M1, Hin].
Qed.

(* C17 (model level): whatever sequence of rewriting writes is applied to the COPY, every cell that existed before
   Preprocessor.CFG was called -- in particular every block of the shared graph -- is unchanged afterwards *)
Theorem preprocess_frame h g ops : heap_ok h ->
  forall a, a < h_next h -> hlookup (cells (fst (preprocess h g ops))) a = hlookup (cells h) a.
Proof.
  intros Hok. assert (I : Inv (h_next h) h (preprocess h g ops)).
  { unfold preprocess, run_ops. apply fold_left_invariant; [exact (copy_graph_inv h g Hok)|]. intros hg o _. apply exec_inv. }
  exact (proj1 (proj1 I)).
Qed.

(* non-vacuity: a two-block graph, one rewrite of each kind *)
Definition ex_heap : heap := {| cells := [(0, {| b_nodes := [7]; b_succs := [1]; b_live := true; b_index := 0 |});
                                         (1, {| b_nodes := [8; 9]; b_succs := []; b_live := true; b_index := 1 |})]; h_next := 2 |}.
Example ex_preprocess :
  heap_ok ex_heap /\
  let '(h', g') := preprocess ex_heap [0; 1] [OSetNodes 0 [5]; OSetSuccs 1 [0]; OAppendBlock [] [] false; OSetLive 2 true] in
  hlookup (cells h') 0 = hlookup (cells ex_heap) 0 /\ hlookup (cells h') 1 = hlookup (cells ex_heap) 1 /\ g' = [2; 3; 4].
Proof.
  split.
  - intros a b [H|[H|[]]]; inversion H; subst; cbn; lia.
  - vm_compute. auto.
Qed.
