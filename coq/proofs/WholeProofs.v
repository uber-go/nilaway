(* The whole analysis on MiniGo: flow analysis (M7) + inference engine (M1).  Combines flow_sound / guarded_no_flow
   with the engine theorems of C05, and gives the concrete witnesses (non-vacuity; refutation without the
   call-safety and without the contract-locality side condition, findings F2 and F4; interfaces; the error convention). *)
From Coq Require Import List Bool PeanoNat.
From NM Require Import Engine EngineSpec MiniGo Flow Guard Contract.
From NP Require Import SpecFacts EngineMain FlowProofs GuardProofs ContractProofs.
Import ListNotations.

Lemma engine_clean_iff ts st : pkg_run [] [] ts st -> (conflicts st = [] <-> ~ has_flow (csys_of [] [] ts)).
Proof.
  intros Hr. pose proof (engine_conflict_iff_flow [] [] ts st Hr) as H. destruct (conflicts st) as [|k ks].
  - split; [intros _ Hf; now apply H in Hf | reflexivity].
  - split; [discriminate | intros N; exfalso; apply N, H; discriminate].
Qed.

Theorem whole_sound prog afuel ctr pk r st :
  analyze_program afuel ctr pk prog = Some r -> r_gsafe r = true -> r_clocal r = true -> r_nodel r = true ->
  wf_program prog = true -> ctr_arity ctr 0 (p_funcs prog) = true -> impls_plain prog ctr = true ->
  (forall g fd, ctr g = true -> nth_error (p_funcs prog) g = Some fd -> contract_true prog fd) ->
  pkg_run [] [] (all_triggers r) st -> conflicts st = [] ->
  forall fuel oracle, panic_of (run_program prog fuel oracle) = None.
Proof.
  intros Han Hg Hl Hnd Hwf Har Him Hct Hr Hc.
  exact (flow_sound prog afuel ctr pk r Han Hg Hl Hnd Hwf Har Him Hct (proj1 (engine_clean_iff _ st Hr) Hc)).
Qed.

Theorem whole_reported prog afuel ctr pk r st fuel oracle d :
  analyze_program afuel ctr pk prog = Some r -> r_gsafe r = true -> r_clocal r = true -> r_nodel r = true ->
  wf_program prog = true -> ctr_arity ctr 0 (p_funcs prog) = true -> impls_plain prog ctr = true ->
  (forall g fd, ctr g = true -> nth_error (p_funcs prog) g = Some fd -> contract_true prog fd) ->
  pkg_run [] [] (all_triggers r) st ->
  panic_of (run_program prog fuel oracle) = Some d -> conflicts st <> [].
Proof.
  intros Han Hg Hl Hnd Hwf Har Him Hct Hr Hp Hc.
  rewrite (whole_sound _ _ _ _ _ _ Han Hg Hl Hnd Hwf Har Him Hct Hr Hc fuel oracle) in Hp. discriminate.
Qed.

Lemma inferred_arity hf ctr : forall fds f0,
  (forall i fd, nth_error fds i = Some fd -> ctr (f0 + i) = true -> infer_sem hf fd = true) ->
  ctr_arity ctr f0 fds = true.
Proof.
  induction fds as [|fd fds IH]; intros f0 H; cbn; auto. apply andb_true_iff. split.
  - destruct (ctr f0) eqn:E; auto. cbn. specialize (H 0 fd eq_refl). rewrite Nat.add_0_r in H.
    apply (proj1 (proj1 (andb_true_iff _ _) (H E))).
  - apply IH. intros i fd' Hn Hc. apply (H (S i) fd' Hn). now rewrite <- Nat.add_succ_comm.
Qed.

Theorem whole_sound_inferred prog afuel hf ctr pk r st :
  analyze_program afuel ctr pk prog = Some r -> r_gsafe r = true -> r_clocal r = true -> r_nodel r = true ->
  wf_program prog = true -> impls_plain prog ctr = true ->
  (forall g fd, ctr g = true -> nth_error (p_funcs prog) g = Some fd -> infer_sem hf fd = true) ->
  pkg_run [] [] (all_triggers r) st -> conflicts st = [] ->
  forall fuel oracle, panic_of (run_program prog fuel oracle) = None.
Proof.
  intros Han Hg Hl Hnd Hwf Him Hinf Hr Hc. refine (whole_sound prog afuel ctr pk r st Han Hg Hl Hnd Hwf _ Him _ Hr Hc).
  - apply (inferred_arity hf). intros i fd Hn Hci. exact (Hinf i fd Hci Hn).
  - intros g fd Hcg Hn. exact (infer_sem_sound prog hf fd (Hinf g fd Hcg Hn)).
Qed.

(* every sink of the emitted constraints is a dereference whose producers can fire: if those all sit at one
   dereference d, every sink of a reported flow is at d *)
Theorem lone_sink ts d :
  (forall t, In t ts -> t_cons t = KAlways -> t_prod t <> KNever -> t_id t = d) ->
  forall t a, In t ts -> In a (atoms_of_trigger t) ->
  match a with ASnk _ | ADirect _ => t_id t = d | _ => True end.
Proof.
  intros H t a Ht Ha. pose proof (sink_atom_inv t a Ha) as K. destruct a; auto; apply H; tauto.
Qed.

Theorem guarded_clean prog afuel ctr pk r st :
  guarded prog = true -> analyze_program afuel ctr pk prog = Some r ->
  pkg_run [] [] (all_triggers r) st -> conflicts st = [].
Proof.
  intros Hg Han Hr. exact (proj2 (engine_clean_iff _ st Hr) (guarded_no_flow prog afuel ctr pk r Hg Han)).
Qed.

(* each conjunct by one evaluation: the first fixes the analysis result r, the engine run fixes res.  (A bare `split` would
   close an equation with eq_refl and leave the evaluation to the kernel's default conversion, which is slow on these.) *)
Ltac ex_close := vm_compute; first [reflexivity | discriminate].
Ltac ex_solve := do 2 eexists; repeat (split; [ex_close|]); ex_close.
Definition all_exported (s : site) := true.
Definition no_ctr (f : fname) := false.
Definition one_pkg (f : fname) := 0.

(* F0: x := new; y := F1(x, nil) under a guard; dereferences under guards; a loop; a package-level variable *)
Definition ex_ok : program :=
  {| p_funcs :=
       [ {| f_nparams := 0;
            f_body := SSeq (SAssign (VL 0) ANew)
                     (SSeq (SCall 1 (Some (VL 1)) 1 [AVar (VL 0); ANil])
                     (SSeq (SIf (CAnd (CNonNil (VL 1)) COpaque) (SDeref 1 (VL 1)) SSkip)
                     (SSeq (SWhile (CAnd COpaque (CNonNil (VG 0))) (SSeq (SDeref 2 (VG 0)) (SAssign (VL 1) (AVar (VG 0)))))
                           (SAssign (VG 0) ANew)))) |};
         {| f_nparams := 2;
            f_body := SSeq (SIf (COr (CNot (CNonNil (VL 0))) (CDeref 3 (VL 0))) (SReturn ANil) SSkip)
                           (SReturn (AVar (VL 1))) |} ];
     p_ginit := [false]; p_impls := []; p_isig := [] |}.

Example ex_ok_premises :
  exists r res,
    analyze_program 8 no_ctr one_pkg ex_ok = Some r /\ r_gsafe r = true /\ r_clocal r = true /\ r_nodel r = true /\
    wf_program ex_ok = true /\ ctr_arity no_ctr 0 (p_funcs ex_ok) = true /\
    analyze_pkg all_exported 200 [] [] (all_triggers r) = Finished res /\ r_conflicts res = [] /\
    guarded ex_ok = true.
Proof. ex_solve. Qed.

(* finding F2: the tracked package-level variable is not invalidated by the call that re-assigns it *)
Definition ex_global : program :=
  {| p_funcs :=
       [ {| f_nparams := 0;
            f_body := SSeq (SAssign (VG 0) ANew) (SSeq (SCall 1 None 1 []) (SDeref 1 (VG 0))) |};
         {| f_nparams := 0; f_body := SAssign (VG 0) ANil |} ];
     p_ginit := [true]; p_impls := []; p_isig := [] |}.

Theorem refuted_without_call_safety :
  exists prog r st fuel oracle,
    analyze_program 8 no_ctr one_pkg prog = Some r /\ r_gsafe r = false /\ r_clocal r = true /\
    wf_program prog = true /\
    pkg_run [] [] (all_triggers r) st /\ conflicts st = [] /\
    panic_of (run_program prog fuel oracle) = Some 1.
Proof.
  assert (H : exists r res, analyze_program 8 no_ctr one_pkg ex_global = Some r /\ r_gsafe r = false /\ r_clocal r = true /\
             analyze_pkg all_exported 200 [] [] (all_triggers r) = Finished res /\ r_conflicts res = []).
  { ex_solve. }
  destruct H as [r [res [Ha [Hg [Hl [Hr Hc]]]]]].
  destruct (analyze_pkg_run all_exported 200 [] [] _ res (or_introl Hr)) as [st [Hrun [Hcs _]]].
  exists ex_global, r, st, 10, []. repeat split; auto. congruence.
Qed.

(* a contracted callee in another package: the call-site sites are never connected to the callee (finding F4) *)
Definition ex_xpkg : program :=
  {| p_funcs :=
       [ {| f_nparams := 0;
            f_body := SSeq (SCall 1 (Some (VL 1)) 1 [AVar (VL 0)]) (SDeref 1 (VL 1)) |};
         {| f_nparams := 1; f_body := SReturn (AVar (VL 0)) |} ];
     p_ginit := []; p_impls := []; p_isig := [] |}.
Definition ctr1 (f : fname) := Nat.eqb f 1.
Definition two_pkgs (f : fname) := match f with 0 => 1 | _ => 0 end.

Theorem refuted_without_contract_locality :
  exists prog r st fuel oracle,
    analyze_program 8 ctr1 two_pkgs prog = Some r /\ r_gsafe r = true /\ r_clocal r = false /\
    wf_program prog = true /\ ctr_arity ctr1 0 (p_funcs prog) = true /\
    pkg_run [] [] (all_triggers r) st /\ conflicts st = [] /\
    panic_of (run_program prog fuel oracle) = Some 1.
Proof.
  assert (H : exists r res, analyze_program 8 ctr1 two_pkgs ex_xpkg = Some r /\ r_gsafe r = true /\ r_clocal r = false /\
             analyze_pkg all_exported 200 [] [] (all_triggers r) = Finished res /\ r_conflicts res = []).
  { ex_solve. }
  destruct H as [r [res [Ha [Hg [Hl [Hr Hc]]]]]].
  destruct (analyze_pkg_run all_exported 200 [] [] _ res (or_introl Hr)) as [st [Hrun [Hcs _]]].
  exists ex_xpkg, r, st, 10, []. repeat split; auto. congruence.
Qed.

(* with the callee in the caller's package the same program is reported *)
Example xpkg_local_reported :
  exists r res, analyze_program 8 ctr1 one_pkg ex_xpkg = Some r /\ r_clocal r = true /\
    analyze_pkg all_exported 200 [] [] (all_triggers r) = Finished res /\ r_conflicts res <> [].
Proof. ex_solve. Qed.

Definition fd_id : func := {| f_nparams := 1; f_body := SReturn (AVar (VL 0)) |}.
Definition fd_guarded_new : func :=
  {| f_nparams := 1; f_body := SSeq (SIf (CNonNil (VL 0)) (SReturn ANew) SSkip) (SReturn ANil) |}.
(* finding F23: the parameter is overwritten by a nil local inside a loop *)
Definition fd_loop_overwrite : func :=
  {| f_nparams := 1;
     f_body := SSeq (SIf (CNot (CNonNil (VL 0))) (SReturn (AVar (VG 0))) SSkip)
              (SSeq (SWhile COpaque (SAssign (VL 0) (AVar (VL 1)))) (SReturn (AVar (VL 0)))) |}.
(* finding F3: a path that returns nil whatever the argument *)
Definition fd_opaque_nil : func :=
  {| f_nparams := 1;
     f_body := SSeq (SIf COpaque (SReturn ANil) SSkip)
              (SSeq (SIf (CNot (CNonNil (VL 0))) (SReturn ANil) SSkip) (SReturn (AVar (VL 0)))) |}.
Example infer_examples :
  infer_sem 16 fd_id = true /\ infer_sem 16 fd_guarded_new = true /\
  infer_sem 16 fd_loop_overwrite = false /\ infer_sem 16 fd_opaque_nil = false.
Proof. vm_compute. repeat split; reflexivity. Qed.

(* the function really returns nil for a non-nil argument *)
Example loop_overwrite_not_a_contract :
  exists fuel oracle s', exec {| p_funcs := [fd_loop_overwrite]; p_ginit := [true]; p_impls := []; p_isig := [] |} fuel (f_body fd_loop_overwrite)
                              (bind_params 0 [VPtr None]) oracle = OReturn VNil s' [].
Proof. exists 10, [true]. eexists. reflexivity. Qed.


(* I0 { X0x0(a *T) *T }; S0 implements it by function 1 (receiver, a): dereferences a, returns nil.
   F0: y := &S0{} as I0; x := y.X0x0(nil); x.V  -- both directions of the flow are reported *)
Definition ex_iface : program :=
  {| p_funcs :=
       [ {| f_nparams := 0;
            f_body := SSeq (SConv (VL 40) 0 0)
                     (SSeq (SCallI 1 1 (Some (VL 0)) (VL 40) 0 0 [ANil]) (SDeref 2 (VL 0))) |};
         {| f_nparams := 2; f_body := SSeq (SDeref 3 (VL 1)) (SReturn ANil) |} ];
     p_ginit := []; p_impls := [[1]]; p_isig := [[1]] |}.

Example iface_flows_reported :
  exists r res, analyze_program 8 no_ctr one_pkg ex_iface = Some r /\ wf_program ex_iface = true /\
    impls_plain ex_iface no_ctr = true /\
    analyze_pkg all_exported 200 [] [] (all_triggers r) = Finished res /\ length (r_conflicts res) = 2.
Proof. ex_solve. Qed.

(* the same program with the nil flows removed (argument allocated, implementation returns an allocation) is clean
   and meets every premise of the soundness theorem *)
Definition ex_iface_ok : program :=
  {| p_funcs :=
       [ {| f_nparams := 0;
            f_body := SSeq (SConv (VL 40) 0 0)
                     (SSeq (SCallI 1 1 (Some (VL 0)) (VL 40) 0 0 [ANew]) (SDeref 2 (VL 0))) |};
         {| f_nparams := 2; f_body := SSeq (SDeref 3 (VL 1)) (SReturn ANew) |} ];
     p_ginit := []; p_impls := [[1]]; p_isig := [[1]] |}.

Example iface_ok_premises :
  exists r res, analyze_program 8 no_ctr one_pkg ex_iface_ok = Some r /\ r_gsafe r = true /\ r_clocal r = true /\ r_nodel r = true /\
    wf_program ex_iface_ok = true /\ impls_plain ex_iface_ok no_ctr = true /\
    analyze_pkg all_exported 200 [] [] (all_triggers r) = Finished res /\ r_conflicts res = [].
Proof. ex_solve. Qed.

(* without the triggers of the (interface, implementation) pair the flow through dynamic dispatch is lost: the
   constraint system of ex_iface minus its affiliation triggers has no flow into dereference 3 / from the result *)
Example iface_affiliation_needed :
  exists r res, analyze_program 8 no_ctr one_pkg ex_iface = Some r /\
    analyze_pkg all_exported 200 [] [] (map etrig (r_decl r ++ concat (r_funcs r) ++ concat (r_dups r))) = Finished res /\
    r_conflicts res = [].
Proof. ex_solve. Qed.


(* interface-to-interface conversion: I1 has the same method as I0; the value is made as an I1 and used as an I0:
   F0: y := &S0{} as I1; z := y as I0; x := z.X0x0(nil); x.V      -- both flows are reported through the two links;
   without the triggers of the (I0, I1) pair they are lost *)
Definition ex_iface2 (arg ret : atom_e) : program :=
  {| p_funcs :=
       [ {| f_nparams := 0;
            f_body := SSeq (SConv (VL 40) 1 0) (SSeq (SConvI (VL 41) (VL 40) 0 1)
                     (SSeq (SCallI 1 1 (Some (VL 0)) (VL 41) 0 0 [arg]) (SDeref 2 (VL 0)))) |};
         {| f_nparams := 2; f_body := SSeq (SDeref 3 (VL 1)) (SReturn ret) |} ];
     p_ginit := []; p_impls := [[1]]; p_isig := [[1]; [1]] |}.

Example iface2_flows_reported :
  exists r res, analyze_program 8 no_ctr one_pkg (ex_iface2 ANil ANil) = Some r /\ wf_program (ex_iface2 ANil ANil) = true /\
    analyze_pkg all_exported 200 [] [] (all_triggers r) = Finished res /\ length (r_conflicts res) = 2 /\
    panic_of (run_program (ex_iface2 ANil ANil) 20 []) = Some 3 /\ panic_of (run_program (ex_iface2 ANew ANil) 20 []) = Some 2.
Proof. ex_solve. Qed.

Example iface2_ok_premises :
  exists r res, analyze_program 8 no_ctr one_pkg (ex_iface2 ANew ANew) = Some r /\ r_gsafe r = true /\ r_clocal r = true /\ r_nodel r = true /\
    wf_program (ex_iface2 ANew ANew) = true /\ impls_plain (ex_iface2 ANew ANew) no_ctr = true /\
    analyze_pkg all_exported 200 [] [] (all_triggers r) = Finished res /\ r_conflicts res = [].
Proof. ex_solve. Qed.

Example iface2_link_needed :
  exists r res, analyze_program 8 no_ctr one_pkg (ex_iface2 ANil ANil) = Some r /\
    analyze_pkg all_exported 200 [] []
      (map etrig (r_decl r ++ concat (r_funcs r) ++ concat (r_dups r) ++ affil (ex_iface2 ANil ANil) (1, 0))) = Finished res /\
    r_conflicts res = [].
Proof. ex_solve. Qed.

(* F1: if opaque { return nil, fresh error }; return new, nil     (respects the convention)
   F2: if opaque { return nil, nil }; return new, nil             (violates it)
   F0: x, e = F1(); if e != nil { return nil }; x.V               checked: clean
       y, e2 = F1(); y.V                                          unchecked: reported ("lacking guarding")
       z, e3 = F2(); if e3 != nil { return nil }; z.V             checked, but the callee returns nil with a nil error: reported
       w, e4 = F1(); e4 = nil; if e4 != nil { return nil }; w.V   error overwritten before the check: reported *)
Definition fd_err_ok : func :=
  {| f_nparams := 0; f_body := SSeq (SIf COpaque (SReturn2 ANil ANew) SSkip) (SReturn2 ANew ANil) |}.
Definition fd_err_bad : func :=
  {| f_nparams := 0; f_body := SSeq (SIf COpaque (SReturn2 ANil ANil) SSkip) (SReturn2 ANew ANil) |}.
Definition chk (x xe : nat) (d : nat) : stmt :=
  SSeq (SIf (CNonNil (VL xe)) (SReturn ANil) SSkip) (SDeref d (VL x)).
Definition mk_err_prog (body : stmt) : program :=
  {| p_funcs := [ {| f_nparams := 0; f_body := body |}; fd_err_ok; fd_err_bad ]; p_ginit := []; p_impls := []; p_isig := [] |}.
Definition ex_err_checked := mk_err_prog (SSeq (SCall2 1 (Some (VL 0)) (Some (VL 50)) 1 []) (chk 0 50 1)).
Definition ex_err_unchecked := mk_err_prog (SSeq (SCall2 1 (Some (VL 0)) (Some (VL 50)) 1 []) (SDeref 1 (VL 0))).
Definition ex_err_callee_bad := mk_err_prog (SSeq (SCall2 1 (Some (VL 0)) (Some (VL 50)) 2 []) (chk 0 50 1)).
Definition ex_err_overwritten :=
  mk_err_prog (SSeq (SCall2 1 (Some (VL 0)) (Some (VL 50)) 1 []) (SSeq (SAssign (VL 50) ANil) (chk 0 50 1))).

Definition nconf (p : program) : option nat :=
  match analyze_program 8 no_ctr one_pkg p with
  | Some r => match analyze_pkg all_exported 200 [] [] (all_triggers r) with
              | Finished res => Some (length (r_conflicts res))
              | _ => None
              end
  | None => None
  end.

Example err_convention_both_ends :
  nconf ex_err_checked = Some 0 /\ nconf ex_err_unchecked = Some 1 /\
  nconf ex_err_callee_bad = Some 1 /\ nconf ex_err_overwritten = Some 1.
Proof. vm_compute. repeat split; reflexivity. Qed.

Example err_checked_premises :
  exists r res, analyze_program 8 no_ctr one_pkg ex_err_checked = Some r /\ r_gsafe r = true /\ r_clocal r = true /\
    r_nodel r = true /\ wf_program ex_err_checked = true /\
    analyze_pkg all_exported 200 [] [] (all_triggers r) = Finished res /\ r_conflicts res = [].
Proof. ex_solve. Qed.

Example err_reported_programs_panic :
  panic_of (run_program ex_err_unchecked 20 [true]) = Some 1 /\
  panic_of (run_program ex_err_callee_bad 20 [true]) = Some 1 /\
  panic_of (run_program ex_err_overwritten 20 [true]) = Some 1.
Proof. vm_compute. repeat split; reflexivity. Qed.

(* an unchecked use at a dereference is a flow whatever the callee does *)
Lemma unchecked_is_flow ALLs t :
  In t ALLs -> s_ctrl t = None -> kind_of (s_prod t) = KAlways -> s_cons t = CAlways ->
  has_flow (csys_of [] [] (map etrig ALLs)).
Proof.
  intros Ht Hc Hk Hs. left. exists (s_id t). left. apply In_base_csys_of. right. right. exists (etrig t).
  repeat split; [now apply in_map | cbn; now rewrite Hc | unfold atoms_of_trigger; cbn; rewrite Hk, Hs; now left].
Qed.

(* direct forwarding `return f()`: F3 forwards F1 (respects the convention), F4 forwards F2 (does not);
   F0: x, e = F3(); if e != nil { return nil }; x.V     clean
       x, e = F4(); if e != nil { return nil }; x.V     reported, and panics *)
Definition mk_fwd_prog (body : stmt) : program :=
  {| p_funcs := [ {| f_nparams := 0; f_body := body |}; fd_err_ok; fd_err_bad;
                  {| f_nparams := 0; f_body := SRetCall 7 1 [] |}; {| f_nparams := 0; f_body := SRetCall 8 2 [] |} ];
     p_ginit := []; p_impls := []; p_isig := [] |}.
Definition ex_fwd_ok := mk_fwd_prog (SSeq (SCall2 1 (Some (VL 0)) (Some (VL 50)) 3 []) (chk 0 50 1)).
Definition ex_fwd_bad := mk_fwd_prog (SSeq (SCall2 1 (Some (VL 0)) (Some (VL 50)) 4 []) (chk 0 50 1)).

Example err_forwarding :
  nconf ex_fwd_ok = Some 0 /\ nconf ex_fwd_bad = Some 1 /\
  panic_of (run_program ex_fwd_bad 20 [true]) = Some 1 /\
  (forall o, In o [[true]; [false]] -> panic_of (run_program ex_fwd_ok 20 o) = None).
Proof. vm_compute. repeat split; try reflexivity. intros o [<-|[<-|[]]]; reflexivity. Qed.

Example err_forwarding_premises :
  exists r res, analyze_program 8 no_ctr one_pkg ex_fwd_ok = Some r /\ r_gsafe r = true /\ r_clocal r = true /\
    r_nodel r = true /\ wf_program ex_fwd_ok = true /\
    analyze_pkg all_exported 200 [] [] (all_triggers r) = Finished res /\ r_conflicts res = [].
Proof. ex_solve. Qed.

(* `return g(args)` in f: the callee's result site flows into f's, and f is never "always safe" *)
Lemma retcall_triggers ng ctr sp f fuel e cs g args :
  exists r, analyze ng ctr sp f fuel (SRetCall cs g args) e = Some r /\
            In (mk_trigger 0 (PSite (SResult g)) (CSite (SResult f))) (a_trig r) /\ a_rsafe r = false /\ a_env r = None.
Proof. eexists; split; [reflexivity|]. cbn. split; [apply in_or_app; right; left; reflexivity|auto]. Qed.

Lemma return2_triggers ng ctr sp f fuel e a :
  (exists r, analyze ng ctr sp f fuel (SReturn2 a ANil) e = Some r /\
             a_trig r = map (fun p => mk_trigger 0 p (CSite (SResult f))) (uprods e a)) /\
  (exists r, analyze ng ctr sp f fuel (SReturn2 a ANew) e = Some r /\ a_trig r = []).
Proof. split; eexists; split; reflexivity. Qed.
