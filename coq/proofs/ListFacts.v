(* Facts about lists (and one about option bool) that the standard library of Coq 8.16 lacks, shared by the proof files. *)
From Coq Require Import List Bool PeanoNat.
Import ListNotations.

Lemma existsb_eq_in {A} (eqb : A -> A -> bool) (Heq : forall a b, eqb a b = true <-> a = b) x l :
  existsb (eqb x) l = true <-> In x l.
Proof.
  rewrite existsb_exists. split.
  - intros [y [Hy E]]. apply Heq in E. now subst.
  - intros H. exists x. split; auto. now apply Heq.
Qed.

Lemma existsb_eqb_in x l : existsb (Nat.eqb x) l = true <-> In x l.
Proof. apply existsb_eq_in, Nat.eqb_eq. Qed.

Lemma existsb_false {A} (f : A -> bool) l : existsb f l = false <-> forall x, In x l -> f x = false.
Proof.
  induction l as [|y l IH]; cbn; [tauto|]. rewrite orb_false_iff, IH. split.
  - intros [Hy H] x [<-|Hx]; auto.
  - intros H. split; auto.
Qed.

Lemma existsb_eqb_notin x l : existsb (Nat.eqb x) l = false <-> ~ In x l.
Proof. rewrite <- existsb_eqb_in. destruct (existsb (Nat.eqb x) l); split; congruence. Qed.

Lemma map_eq_In {A B C} (f : A -> C) (g : B -> C) l l' x :
  map f l = map g l' -> In x l -> exists y, In y l' /\ f x = g y.
Proof.
  intros E H. apply (in_map f) in H. rewrite E in H. apply in_map_iff in H.
  destruct H as [y [H1 H2]]. eauto.
Qed.

Lemma fold_left_invariant {A B} (P : A -> Prop) (f : A -> B -> A) l : forall a,
  P a -> (forall a x, In x l -> P a -> P (f a x)) -> P (fold_left f l a).
Proof.
  induction l as [|y l IH]; cbn; intros a Ha Hf; [exact Ha|].
  apply IH; [apply Hf; auto | intros; apply Hf; auto].
Qed.

Lemma NoDup_app_single {A} (l : list A) x : NoDup l -> ~ In x l -> NoDup (l ++ [x]).
Proof.
  intros Hn Hx. induction l as [|y l IH]; cbn.
  - repeat constructor; auto.
  - inversion Hn; subst. constructor.
    + rewrite in_app_iff. cbn. intros [H|[<-|[]]]; [auto | apply Hx; now left].
    + apply IH; auto. intros H. apply Hx. now right.
Qed.

Lemma filter_length_le {A} (f g : A -> bool) l :
  (forall x, In x l -> f x = true -> g x = true) -> length (filter f l) <= length (filter g l).
Proof.
  induction l as [|x l IH]; cbn; auto. intros H.
  assert (IH' : length (filter f l) <= length (filter g l)) by (apply IH; intros; apply H; auto).
  destruct (f x) eqn:Ef; [rewrite (H x (or_introl eq_refl) Ef); cbn; now apply le_n_S|].
  destruct (g x); cbn; auto.
Qed.

Lemma filter_length_lt {A} (f g : A -> bool) l y :
  (forall x, In x l -> f x = true -> g x = true) -> In y l -> f y = false -> g y = true ->
  length (filter f l) < length (filter g l).
Proof.
  induction l as [|x l IH]; cbn; [tauto|]. intros H [->|Hy] Fy Gy.
  - rewrite Fy, Gy. cbn. apply Nat.lt_succ_r. apply filter_length_le. intros; apply H; auto.
  - assert (IH' : length (filter f l) < length (filter g l)) by (apply IH; auto).
    destruct (f x) eqn:Ef; [rewrite (H x (or_introl eq_refl) Ef); cbn; now apply -> Nat.succ_lt_mono|].
    destruct (g x); cbn; auto.
Qed.

Lemma nil_of_iff {A B} (a : list A) (b : list B) : (a <> [] <-> b <> []) -> b = [] -> a = [].
Proof. intros H E. destruct a; [reflexivity|]. destruct (proj1 H); [discriminate | exact E]. Qed.

Lemma option_bool_ext (a b : option bool) :
  (a = Some true <-> b = Some true) -> (a = Some false <-> b = Some false) -> a = b.
Proof.
  intros [T T'] [N N']. destruct a as [[|]|]; [symmetry; auto..|]. destruct b as [[|]|]; auto.
Qed.

Lemma filter_all {A} (f : A -> bool) l : forallb f l = true -> filter f l = l.
Proof. induction l as [|x l IH]; cbn; auto. intros H. apply andb_true_iff in H as [Hx Hl]. now rewrite Hx, IH. Qed.

Lemma notin_app {A} (x : A) l1 l2 : ~ In x (l1 ++ l2) -> ~ In x l1 /\ ~ In x l2.
Proof. intros H. split; intros Hi; apply H, in_or_app; auto. Qed.

Lemma fold_left_conj {A B} (g : A -> A) (F G : A -> B -> A) :
  (forall a x, F a x = g (G (g a) x)) -> (forall a, g (g a) = a) -> forall l a, fold_left F l a = g (fold_left G l (g a)).
Proof. intros H Hg. induction l as [|x l IH]; intros a; cbn; [now rewrite Hg | now rewrite IH, H, Hg]. Qed.

Lemma NoDup_app_inv {A} (l l' : list A) : NoDup (l ++ l') -> NoDup l' /\ forall x, In x l -> ~ In x l'.
Proof.
  induction l as [|y l IH]; cbn; intros H; [split; [exact H|intros x []]|].
  inversion H as [|? ? Ny Nl]; subst. destruct (IH Nl) as [N D]. split; [exact N|].
  intros x [<-|I]; [intros C; apply Ny, in_or_app; now right|now apply D].
Qed.

Lemma filter_same_length {A} (f : A -> bool) l : length l <= length (filter f l) -> filter f l = l.
Proof.
  induction l as [|x l IH]; simpl; [reflexivity|]. destruct (f x); simpl; intros H.
  - f_equal. apply IH, le_S_n, H.
  - (* then the rest would pass whole, and be longer than itself *)
    exfalso. rewrite IH in H by apply Nat.lt_le_incl, H. exact (Nat.nle_succ_diag_l _ H).
Qed.

Lemma forallb_nth {A} (P : A -> bool) l i a : forallb P l = true -> nth_error l i = Some a -> P a = true.
Proof. intros H Hn. rewrite forallb_forall in H. apply H. eapply nth_error_In; eauto. Qed.

Lemma forallb_nth_default {A} (P : A -> bool) l d n : forallb P l = true -> P d = true -> P (nth n l d) = true.
Proof.
  intros H D. destruct (nth_in_or_default n l d) as [I| ->]; [exact (proj1 (forallb_forall _ _) H _ I)|exact D].
Qed.
