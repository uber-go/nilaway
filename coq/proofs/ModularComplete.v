(* C03 / C06 at engine level, completeness half: an importer that works from the facts a package published (and the
   facts of that package's own dependencies) finds every flow that analysis of the whole constraint graph finds, and
   reaches the same verdicts on the sites it can see -- provided no controlled trigger of the publishing package is left
   pending (finding F15 shows the condition necessary).  The package was run on (facts, annots, ts) from the upstream
   snapshot up to the state st and published fo; D is everything the importer adds.  CWh is the whole graph, CEx what
   the importer works from. *)
From Coq Require Import List Bool.
From NM Require Import Engine EngineSpec.
From NP Require Import SpecFacts EngineBasics EngineStep EngineSound EngineComplete EngineMain EngineOrder ExportProofs ExportConvex ModularProofs.
Import ListNotations.

Definition sites_of_atom (a : atom) : list site :=
  match a with ASrc s => [s] | ASnk s => [s] | AEdge p c _ => [p; c] | ADirect _ => [] end.
Definition sites_of (D : csys) : list site :=
  flat_map sites_of_atom (base D) ++ flat_map (fun ka => fst ka :: sites_of_atom (snd ka)) (ctld D).

Lemma sites_base D a s : In a (base D) -> In s (sites_of_atom a) -> In s (sites_of D).
Proof. intros Ha Hs. apply in_or_app. left. apply in_flat_map. eauto. Qed.
Lemma sites_ctld D k a s : In (k, a) (ctld D) -> s = k \/ In s (sites_of_atom a) -> In s (sites_of D).
Proof. intros Ha Hs. apply in_or_app. right. apply in_flat_map. exists (k, a). split; [exact Ha | destruct Hs; [now left | now right]]. Qed.

Lemma export_pairs_out chosen up : forall m f x i o y t,
  export_pairs chosen up m = Some f -> In (x, Undet i o) m -> mem x chosen = true -> In (y, t) o ->
  (exists di do, In (x, Undet di do) f /\ In (y, t) do) \/
  (exists oi oo t', lookup up x = Some (Undet oi oo) /\ lookup oo y = Some t').
Proof. intros m f x i o y t. exact (export_pairs_edge chosen up true m f x i o y t). Qed.

Lemma export_pairs_in chosen up : forall m f x i o y t,
  export_pairs chosen up m = Some f -> In (x, Undet i o) m -> mem x chosen = true -> In (y, t) i ->
  (exists di do, In (x, Undet di do) f /\ In (y, t) di) \/
  (exists oi oo t', lookup up x = Some (Undet oi oo) /\ lookup oi y = Some t').
Proof. intros m f x i o y t. exact (export_pairs_edge chosen up false m f x i o y t). Qed.

(* the end of a conflict-free run: what an active edge constraint guarantees about the final state *)
Definition E1 (st : state) (p c : site) : Prop :=
  (dv st p = Some true -> dv st c = Some true) /\
  (dv st c = Some false -> dv st p = Some false) /\
  (dv st p = None -> dv st c = None -> stored st p c).

Lemma Hd_nil_E1 st p c t : Doomed st [] \/ Hd st [] (AEdge p c t) -> E1 st p c.
Proof.
  intros H. destruct (Hd_nil_sat st (AEdge p c t) H) as [K1 K2]. split; [exact K1 | split; [exact K2|]].
  destruct H as [H|[[t' [[] _]]|[[t' []]|[_ [_ K3]]]]]; [destruct (Doomed_nil _ H) | exact K3].
Qed.

Lemma verdict_cases (d : option bool) b : d = Some b \/ d = Some (negb b) \/ d = None.
Proof. destruct d as [[|]|], b; auto. Qed.

Section ModComplete.
  Variable exported : site -> bool.
  Variables (facts : list (nat * fact)) (annots : list (site * bool)) (ts : list trigger).
  Variables (up : list (site * ival)) (st : state) (fo : option fact).
  Variable D : csys.

  Let C1 := pkg_csys facts annots ts.

  Hypothesis HR : pkg_run_up facts annots ts up st.
  Hypothesis HE : export exported up (mp st) = Some fo.
  Hypothesis Hc : conflicts st = [].

  (* the importer names sites of this package only through exported symbols *)
  Definition vis (s : site) : Prop := exported s = true \/ lookup (mp st) s = None.
  Hypothesis HD : forall s, In s (sites_of D) -> vis s.

  (* no controlled trigger is left pending: every controlling site has a verdict at the end of the run *)
  Hypothesis Hctl : forall k a, In (k, a) (ctld C1) -> dv st k <> None.

  Definition Uat : list atom := flat_map atoms_of_fact (map snd facts).
  Definition Eat : list atom := match fo with Some f => atoms_of_fact f | None => [] end.
  Definition CEx : csys := {| base := Uat ++ Eat ++ base D; ctld := ctld D |}.
  Definition CWh : csys := csys_union C1 D.
  Definition Flow : Prop := has_flow CEx.

  Lemma HG : AllH C1 st [].
  Proof. exact (pkg_Good _ _ _ _ (pkg_run_up_run _ _ _ _ _ HR) Hc). Qed.
  Lemma HJ : J C1 st [].
  Proof. exact (pkg_J _ _ _ _ (pkg_run_up_run _ _ _ _ _ HR)). Qed.
  Lemma Hnd : NoDup (map fst (mp st)).
  Proof. eapply pkg_run_nodup; eauto. Qed.

  (* the upstream snapshot is the end of a run on the dependencies' facts alone, and the importer has those facts *)
  Lemma upstream_J : exists st0, up = mp st0 /\ J CEx st0 [].
  Proof.
    destruct HR as [st0 [st1 [RA [Hup _]]]]. exists (fst (build_pkg_work st0 [])). split; [exact Hup|].
    apply (J_mono (pkg_csys facts [] [])).
    - intros a Ha. cbn in Ha. rewrite !app_nil_r in Ha. apply in_or_app. now left.
    - intros ka [].
    - apply pkg_J. exists st0, st0. split; [exact RA | split; constructor].
  Qed.

  Lemma Eat_in a : In a Eat -> In a (base CEx).
  Proof. intros H. cbn. apply in_or_app. right. apply in_or_app. auto. Qed.
  Lemma D_in a : In a (base D) -> In a (base CEx).
  Proof. intros H. cbn. apply in_or_app. right. apply in_or_app. auto. Qed.

  Lemma export_pairs_of : exists l, export_pairs (choose_sites_to_export exported (mp st)) up (mp st) = Some l /\
                                    forall a, In a (atoms_of_fact l) -> In a Eat.
  Proof.
    destruct (export_inv _ _ _ _ HE) as [l [Ep E]]. exists l. split; [exact Ep|].
    intros a Ha. unfold Eat. rewrite E. destruct l; [destruct Ha | exact Ha].
  Qed.

  (* Nilability travels along the edges, non-nil requirements against them, and what follows is the same argument
     for both: b = true stands for the first, b = false for the second.  `along b f x y` is f on the pair x, y read
     as an edge from x to y in direction b *)
  Definition along {A} (b : bool) (f : site -> site -> A) (x y : site) : A := if b then f x y else f y x.
  Definition reach (b : bool) (s : site) : Prop := if b then nilr CEx s else nonr CEx s.

  Lemma along_negb {A} b (f : site -> site -> A) x y : along (negb b) f y x = along b f x y.
  Proof. now destruct b. Qed.

  Lemma flow_at b s : reach b s -> reach (negb b) s -> Flow.
  Proof. intros H1 H2. right. exists s. destruct b; split; assumption. Qed.

  Lemma vis_dv s b : vis s -> dv st s = Some b -> reach b s.
  Proof.
    intros [Hx|Hn] Hd; rewrite dv_lookup in Hd; [|now rewrite Hn in Hd].
    destruct (lookup (mp st) s) as [[e|i o]|] eqn:El; try discriminate. injection Hd as <-.
    destruct (export_verdicts_kept exported facts annots ts up st fo s e HR HE Hx El) as [[f [e' [Hfo [Hl <-]]]]|[e' [Hl <-]]].
    - assert (Ha : In (if eval_expl e' then ASrc s else ASnk s) (base CEx)).
      { apply Eat_in. unfold Eat. rewrite Hfo. apply In_atoms_of_fact. left. exists s, e'. split; [now apply lookup_Some_In | reflexivity]. }
      unfold reach. destruct (eval_expl e'); [now apply nr_src | apply nn_snk; now left].
    - destruct upstream_J as [st0 [-> J0]].
      assert (D0 : dv st0 s = Some (eval_expl e')) by now rewrite dv_lookup, Hl.
      exact (J_dv _ _ _ _ _ J0 D0).
  Qed.

  Definition elink (b : bool) (x y : site) : Prop := exists t, act CEx (along b (fun p c => AEdge p c t) x y).

  Lemma elink_reach b x y : elink b x y -> reach b x -> reach b y.
  Proof. intros [t A]. destruct b; [exact (act_edge_nilr _ _ _ _ A) | exact (nn_edge _ _ _ _ A)]. Qed.

  Lemma stored_at b x y : along b (stored st) x y ->
    exists i o t, lookup (mp st) x = Some (Undet i o) /\ In (y, t) (if b then o else i).
  Proof. destruct b; intros S; apply stored_inv in S; apply S. Qed.

  Lemma chosen_link b x y : In x (choose_sites_to_export exported (mp st)) -> along b (stored st) x y -> elink b x y.
  Proof.
    intros Hch S. destruct (stored_at b x y S) as (i & o & t & El & Hy).
    destruct export_pairs_of as [l [Ep Hl]].
    destruct (export_pairs_edge _ _ b _ _ _ _ _ _ _ Ep (lookup_Some_In _ _ _ El) (proj2 (mem_In _ _) Hch) Hy)
      as [[di [do [H1 H2]]]|[oi [oo [t' [H1 H2]]]]].
    - exists t. left. apply Eat_in, Hl, In_atoms_of_fact. right. exists x, di, do, y, t. destruct b; auto.
    - destruct upstream_J as [st0 [-> J0]]. exists t'.
      destruct b; [apply (J5o _ _ _ J0); unfold outs_l | apply (J5i _ _ _ J0); unfold ins_l]; rewrite H1; now apply lookup_Some_In.
  Qed.

  Notation inn := (inner exported (mp st)).
  Notation rootS := (root exported (mp st)).

  Definition undet (s : site) : Prop := exists i o, lookup (mp st) s = Some (Undet i o).

  Lemma undet_dv s : undet s -> dv st s = None.
  Proof. intros [i [o E]]. now rewrite dv_lookup, E. Qed.
  Lemma undet_root_or_inn s : undet s -> rootS s \/ inn s = true.
  Proof.
    intros U. destruct (exported s) eqn:Hx; [left | right; apply inner_iff; now split].
    destruct U as [i [o E]]. split; [exact (lookup_In_fst _ _ _ E) | exact Hx].
  Qed.
  Lemma inn_dv s : inn s = true -> dv st s = None.
  Proof. intros H. apply inner_iff in H. exact (undet_dv s (proj2 H)). Qed.
  Lemma vis_not_inn s : vis s -> inn s = true -> False.
  Proof. intros Hv Hi. apply inner_iff in Hi. destruct Hi as [Hx [i [o E]]]. destruct Hv; congruence. Qed.
  Lemma stored_undet b x y : along b (stored st) x y -> undet x /\ undet y.
  Proof.
    intros S. pose proof S as S'. rewrite <- along_negb in S'.
    destruct (stored_at _ _ _ S) as (i & o & t & E & _), (stored_at _ _ _ S') as (i' & o' & t' & E' & _).
    split; eexists; eexists; eassumption.
  Qed.

  (* conv true: the inner sites a path of stored edges through inner sites reaches from an exported site;
     conv false: those from which such a path reaches an exported site *)
  Definition conv (b : bool) : site -> Prop := if b then FR exported (mp st) else BR exported (mp st).

  Lemma conv_next b x s : rootS x \/ conv b x -> along b (stored st) x s -> inn s = true -> conv b s.
  Proof.
    intros Hx S Hi. destruct (stored_at b x s S) as (i & o & t & El & Hs). apply (in_map fst) in Hs.
    destruct b; cbn in *.
    - assert (Ho : In s (outs_of (mp st) x)) by (unfold outs_of; now rewrite El).
      destruct Hx; [now apply FR_root with x | now apply FR_step with x].
    - assert (Ho : In s (ins_of (mp st) x)) by (unfold ins_of; now rewrite El).
      destruct Hx; [now apply BR_root with x | now apply BR_step with x].
  Qed.

  Lemma conv_chosen b s : inn s = true -> conv b s -> conv (negb b) s -> In s (choose_sites_to_export exported (mp st)).
  Proof. intros Hi H1 H2. apply choose_convex; [exact Hi|]. destruct b; split; assumption. Qed.
  Lemma root_chosen r : rootS r -> In r (choose_sites_to_export exported (mp st)).
  Proof. intros [H1 H2]. now apply choose_exported. Qed.

  (* ND true: inner sites reachable forward from an exported site the importer knows to be nilable;
     ND false: inner sites that reach an exported site the importer knows to be required non-nil *)
  Inductive ND (b : bool) : site -> Prop :=
    | ND_root r s : rootS r -> reach b r -> along b (stored st) r s -> inn s = true -> ND b s
    | ND_step x s : ND b x -> along b (stored st) x s -> inn s = true -> ND b s.

  Lemma ND_inn b s : ND b s -> inn s = true.
  Proof. destruct 1; auto. Qed.
  Lemma ND_conv b s : ND b s -> conv b s.
  Proof. induction 1 as [r s Hr _ Hs Hi | x s _ IH Hs Hi]; eapply conv_next; eauto. Qed.

  Lemma chosen_reach b x y : In x (choose_sites_to_export exported (mp st)) -> along b (stored st) x y -> reach b x -> reach b y.
  Proof. intros Hch S. exact (elink_reach b x y (chosen_link b x y Hch S)). Qed.

  (* when the path goes on to an exported site, every site on it is chosen, so every edge reaches the importer *)
  Lemma ND_chosen b x y : ND b x -> along b (stored st) x y -> rootS y \/ conv (negb b) y ->
    conv (negb b) x /\ In x (choose_sites_to_export exported (mp st)).
  Proof.
    intros Hx S Hy. assert (Ho : conv (negb b) x).
    { apply conv_next with y; [exact Hy | now rewrite along_negb | exact (ND_inn b x Hx)]. }
    split; [exact Ho | exact (conv_chosen b x (ND_inn b x Hx) (ND_conv b x Hx) Ho)].
  Qed.

  Lemma ND_reach b s : ND b s -> conv (negb b) s -> reach b s.
  Proof.
    induction 1 as [r s Hr Hn Hs Hi | x s Hx IH Hs Hi]; intros Ho.
    - exact (chosen_reach b r s (root_chosen r Hr) Hs Hn).
    - destruct (ND_chosen b x s Hx Hs (or_intror Ho)) as [Hox Hch]. exact (chosen_reach b x s Hch Hs (IH Hox)).
  Qed.

  Inductive RD (b : bool) (s : site) : Prop :=
    | RD_flow : Flow -> RD b s
    | RD_seen : vis s -> reach b s -> RD b s
    | RD_here : dv st s = Some b -> RD b s
    | RD_path : ND b s -> RD b s.

  Lemma RD_vis b s : vis s -> RD b s -> Flow \/ reach b s.
  Proof.
    intros Hv [F|_ H|H|H]; auto.
    - right. now apply vis_dv.
    - destruct (vis_not_inn s Hv (ND_inn b s H)).
  Qed.

  (* the importer knows the site one way, this package determined it the other way: the importer sees the conflict *)
  Lemma RD_opp b s : RD b s -> dv st s = Some (negb b) -> Flow.
  Proof.
    intros [F|Hv H|H|H] Hd; [exact F | | |].
    - exact (flow_at b s H (vis_dv s (negb b) Hv Hd)).
    - rewrite H in Hd. injection Hd as Hd. destruct (no_fixpoint_negb b). now symmetry.
    - rewrite (inn_dv s (ND_inn b s H)) in Hd. discriminate.
  Qed.

  Lemma RD_meet s : RD true s -> RD false s -> Flow.
  Proof.
    intros [F|Hv Hn|Hn|Hn] Hq; [exact F | | exact (RD_opp false s Hq Hn) |].
    - destruct (RD_vis false s Hv Hq) as [F|Hq']; [exact F | exact (flow_at true s Hn Hq')].
    - destruct Hq as [F|Hv Hq|Hq|Hq]; [exact F | destruct (vis_not_inn s Hv (ND_inn true s Hn)) | |].
      + rewrite (inn_dv s (ND_inn true s Hn)) in Hq. discriminate.
      + exact (flow_at true s (ND_reach true s Hn (ND_conv false s Hq)) (ND_reach false s Hq (ND_conv true s Hn))).
  Qed.

  (* along a stored edge from x to y: x is an exported site the importer knows about, or lies on a path from one;
     y is exported, and then the path is complete, or continues the path *)
  Lemma RD_stored b x y : along b (stored st) x y -> RD b x -> RD b y.
  Proof.
    intros S Hx. destruct (stored_undet b x y S) as [Ux Uy].
    destruct Hx as [F|Hv Hn|H|H]; [exact (RD_flow b y F) | | rewrite (undet_dv x Ux) in H; discriminate |].
    - destruct (undet_root_or_inn x Ux) as [Hr|Hi]; [|destruct (vis_not_inn x Hv Hi)].
      destruct (undet_root_or_inn y Uy) as [Hy|Hi].
      + apply RD_seen; [left; apply Hy | exact (chosen_reach b x y (root_chosen x Hr) S Hn)].
      + exact (RD_path b y (ND_root b x y Hr Hn S Hi)).
    - destruct (undet_root_or_inn y Uy) as [Hy|Hi]; [|exact (RD_path b y (ND_step b x y H S Hi))].
      destruct (ND_chosen b x y H S (or_introl Hy)) as [Ho Hch].
      apply RD_seen; [left; apply Hy | exact (chosen_reach b x y Hch S (ND_reach b x H Ho))].
  Qed.

  Lemma E1_along b x y : along b (E1 st) x y ->
    (dv st x = Some b -> dv st y = Some b) /\ (dv st y = Some (negb b) -> dv st x = Some (negb b)) /\
    (dv st x = None -> dv st y = None -> along b (stored st) x y).
  Proof. destruct b; intros [K1 [K2 K3]]; cbn; auto. Qed.

  Lemma RD_edge b x y : along b (E1 st) x y -> RD b x -> RD b y.
  Proof.
    intros E Hx. destruct (E1_along b x y E) as [K1 [K2 K3]].
    destruct (verdict_cases (dv st y) b) as [Dy|[Dy|Dy]].
    - exact (RD_here b y Dy).
    - exact (RD_flow b y (RD_opp b x Hx (K2 Dy))).
    - destruct (verdict_cases (dv st x) b) as [Dx|[Dx|Dx]].
      + rewrite (K1 Dx) in Dy. discriminate.
      + exact (RD_flow b y (RD_opp b x Hx Dx)).
      + exact (RD_stored b x y (K3 Dx Dy) Hx).
  Qed.

  (* an atom active on the whole graph is active for the importer and names visible sites only (an atom of D), or
     holds at the end of this package's run (an atom of this package whose controller, if any, was activated) -- or a
     flow is visible.  A controlling site known nilable on the whole graph was activated here unless the importer sees
     a conflict, since no controlled trigger is left pending *)
  Definition accounted (a : atom) : Prop :=
    Flow \/ (act CEx a /\ forall s, In s (sites_of_atom a) -> vis s) \/ (Doomed st [] \/ Hd st [] a).

  Lemma act_split a : In a (base CWh) \/ (exists k, In (k, a) (ctld CWh) /\ RD true k) -> accounted a.
  Proof.
    intros [Hin|[k [Hin Hk]]]; apply in_app_or in Hin; destruct Hin as [H|H].
    - right; right. exact (ah_base _ _ _ HG a H).
    - right; left. split; [left; now apply D_in | intros s Hs; exact (HD s (sites_base D a s H Hs))].
    - destruct (verdict_cases (dv st k) true) as [Dk|[Dk|Dk]].
      + right; right. exact (ah_ctld _ _ _ HG k a H Dk).
      + left. exact (RD_opp true k Hk Dk).
      + destruct (Hctl k a H Dk).
    - destruct (RD_vis true k (HD k (sites_ctld D k a k H (or_introl eq_refl))) Hk) as [F|Nk]; [left; exact F|].
      right; left. split; [right; exists k; auto | intros s Hs; exact (HD s (sites_ctld D k a s H (or_intror Hs)))].
  Qed.

  Lemma accounted_end (b : bool) s : accounted (if b then ASrc s else ASnk s) -> RD b s.
  Proof.
    intros [F|[[A V]|H]]; [exact (RD_flow b s F) | apply RD_seen | apply RD_here].
    - apply V; destruct b; now left.
    - destruct b; [now apply act_src_nilr | now apply nn_snk].
    - destruct b; exact (Hd_nil_sat st _ H).
  Qed.

  Lemma accounted_edge b x y t : accounted (along b (fun p c => AEdge p c t) x y) -> RD b x -> RD b y.
  Proof.
    intros [F|[[A V]|H]] Hx; [exact (RD_flow b y F) | |].
    - assert (Vxy : vis x /\ vis y) by (destruct b; split; apply V; cbn; auto).
      destruct (RD_vis b x (proj1 Vxy) Hx) as [F|Nx]; [exact (RD_flow b y F)|].
      apply RD_seen; [apply Vxy | exact (elink_reach b x y (ex_intro _ t A) Nx)].
    - apply (RD_edge b x y); [|exact Hx]. destruct b; exact (Hd_nil_E1 st _ _ t H).
  Qed.

  Theorem nilr_transfer s : nilr CWh s -> RD true s.
  Proof.
    apply nilr_act_ind; [intros x Ha | intros p c t Ha].
    - exact (accounted_end true x (act_split _ Ha)).
    - exact (accounted_edge true p c t (act_split _ Ha)).
  Qed.

  Lemma act_transfer a : act CWh a -> accounted a.
  Proof.
    intros [H|[k [H Hk]]]; apply act_split; [now left | right; exists k; split; [exact H | now apply nilr_transfer]].
  Qed.

  Theorem nonr_transfer s : nonr CWh s -> RD false s.
  Proof.
    induction 1 as [s Ha | p c t Ha _ IH].
    - exact (accounted_end false s (act_transfer _ Ha)).
    - exact (accounted_edge false c p t (act_transfer _ Ha) IH).
  Qed.

  Theorem modular_complete : has_flow CWh -> has_flow CEx.
  Proof.
    intros [[t Ha]|[s [Hn Hq]]]; [|exact (RD_meet s (nilr_transfer s Hn) (nonr_transfer s Hq))].
    destruct (act_transfer _ Ha) as [F|[[A _]|H]]; [exact F | left; exists t; exact A | destruct (Hd_nil_sat st (ADirect t) H)].
  Qed.

  Theorem visible_nilable s : vis s -> nilr CWh s -> has_flow CEx \/ nilr CEx s.
  Proof. intros Hv Hn. apply (RD_vis true); auto. now apply nilr_transfer. Qed.
  Theorem visible_nonnil s : vis s -> nonr CWh s -> has_flow CEx \/ nonr CEx s.
  Proof. intros Hv Hn. apply (RD_vis false); auto. now apply nonr_transfer. Qed.

  Lemma summary_atoms_derivable a : In a (Uat ++ Eat) -> derivable C1 a.
  Proof.
    intros Ha. apply in_app_or in Ha. destruct Ha as [Ha|Ha].
    - apply base_derivable. cbn. apply in_or_app. now left.
    - unfold Eat in Ha. destruct fo as [f|]; [|destruct Ha]. exact (exported_fact_derivable exported facts annots ts up st f HR HE a Ha).
  Qed.

  Lemma CEx_base a : In a (base CEx) -> derivable CWh a.
  Proof. intros Ha. apply (CE_base C1 (Uat ++ Eat) D summary_atoms_derivable). cbn in *. now rewrite <- app_assoc. Qed.
  Lemma CEx_ctld ka : In ka (ctld CEx) -> In ka (ctld CWh).
  Proof. exact (CE_ctld C1 (Uat ++ Eat) D ka). Qed.

  Theorem modular_flow_iff : has_flow CWh <-> has_flow CEx.
  Proof. split; [exact modular_complete | exact (entail_flow _ _ CEx_base CEx_ctld)]. Qed.
  Theorem visible_nilr_iff s : vis s -> ~ has_flow CEx -> (nilr CWh s <-> nilr CEx s).
  Proof. intros Hv NF0. split; [intros H; destruct (visible_nilable s Hv H); tauto | exact (entail_nilr _ _ CEx_base CEx_ctld s)]. Qed.
  Theorem visible_nonr_iff s : vis s -> ~ has_flow CEx -> (nonr CWh s <-> nonr CEx s).
  Proof. intros Hv NF0. split; [intros H; destruct (visible_nonnil s Hv H); tauto | exact (entail_nonr _ _ CEx_base CEx_ctld s)]. Qed.
End ModComplete.

Definition opt_fact (n : nat) (fo : option fact) : list (nat * fact) :=
  match fo with Some f => [(n, f)] | None => [] end.

Lemma opt_fact_atoms n fo : flat_map atoms_of_fact (map snd (opt_fact n fo)) = Eat fo.
Proof. destruct fo; [apply app_nil_r | reflexivity]. Qed.

Lemma csys_of_app_equiv f1 a1 t1 f2 a2 t2 :
  csys_equiv (csys_of (f1 ++ f2) (a1 ++ a2) (t1 ++ t2)) (csys_union (csys_of f1 a1 t1) (csys_of f2 a2 t2)).
Proof.
  split.
  - intros a. unfold csys_of, csys_union; cbn. unfold atoms_of_annots.
    rewrite flat_map_app, map_app, filter_app, flat_map_app. rewrite !in_app_iff. tauto.
  - intros ka. unfold csys_of, csys_union; cbn. rewrite flat_map_app, in_app_iff. tauto.
Qed.

Section Runs.
  Variable exported : site -> bool.
  Variables (facts : list (nat * fact)) (annots : list (site * bool)) (ts : list trigger).
  Variables (up : list (site * ival)) (st : state) (fo : option fact).
  (* the importer's own annotations and triggers *)
  Variables (annD : list (site * bool)) (tsD : list trigger) (n : nat).
  Let D := csys_of [] annD tsD.

  Hypothesis HR : pkg_run_up facts annots ts up st.
  Hypothesis HE : export exported up (mp st) = Some fo.
  Hypothesis Hc : conflicts st = [].
  Hypothesis HD : forall s, In s (sites_of D) -> vis exported st s.
  Hypothesis Hctl : forall k a, In (k, a) (ctld (pkg_csys facts annots ts)) -> dv st k <> None.

  Lemma importer_equiv : csys_equiv (pkg_csys (facts ++ opt_fact n fo) annD tsD) (CEx facts fo D).
  Proof.
    split; [intros a | reflexivity]. unfold pkg_csys, csys_of, CEx, Uat; cbn [base D].
    now rewrite map_app, flat_map_app, opt_fact_atoms, <- app_assoc.
  Qed.
  Lemma whole_equiv : csys_equiv (pkg_csys facts (annots ++ annD) (ts ++ tsD)) (CWh facts annots ts D).
  Proof.
    unfold pkg_csys, CWh, D. rewrite <- (app_nil_r (map snd facts)) at 1. apply csys_of_app_equiv.
  Qed.

  Lemma whole_importer_flow :
    has_flow (pkg_csys facts (annots ++ annD) (ts ++ tsD)) <-> has_flow (pkg_csys (facts ++ opt_fact n fo) annD tsD).
  Proof.
    rewrite (proj1 (csys_equiv_spec _ _ whole_equiv)), (proj1 (csys_equiv_spec _ _ importer_equiv)).
    exact (modular_flow_iff exported facts annots ts up st fo D HR HE Hc HD Hctl).
  Qed.

  Theorem modular_equals_whole stW stI :
    pkg_run facts (annots ++ annD) (ts ++ tsD) stW ->
    pkg_run (facts ++ opt_fact n fo) annD tsD stI ->
    (conflicts stW <> [] <-> conflicts stI <> []).
  Proof.
    intros RW RI. rewrite (engine_conflict_iff_flow _ _ _ _ RW), (engine_conflict_iff_flow _ _ _ _ RI).
    exact whole_importer_flow.
  Qed.

  Theorem modular_verdicts_equal stW stI :
    pkg_run facts (annots ++ annD) (ts ++ tsD) stW ->
    pkg_run (facts ++ opt_fact n fo) annD tsD stI ->
    conflicts stI = [] ->
    forall s, vis exported st s -> dv stW s = dv stI s.
  Proof.
    intros RW RI HcI s Hv.
    assert (NFI : ~ has_flow (pkg_csys (facts ++ opt_fact n fo) annD tsD)).
    { rewrite <- (engine_conflict_iff_flow _ _ _ _ RI). congruence. }
    assert (NFW : ~ has_flow (pkg_csys facts (annots ++ annD) (ts ++ tsD))) by now rewrite whole_importer_flow.
    destruct (csys_equiv_spec _ _ whole_equiv) as [_ EW]. destruct (csys_equiv_spec _ _ importer_equiv) as [FI EI].
    assert (NFE : ~ has_flow (CEx facts fo D)) by now rewrite <- FI.
    apply (dv_agree _ _ _ _ s (pkg_Inv _ _ _ _ RW) (pkg_Inv _ _ _ _ RI) NFW NFI).
    - rewrite (proj1 (EW s)), (proj1 (EI s)). exact (visible_nilr_iff exported facts annots ts up st fo D HR HE Hc HD Hctl s Hv NFE).
    - rewrite (proj2 (EW s)), (proj2 (EI s)). exact (visible_nonr_iff exported facts annots ts up st fo D HR HE Hc HD Hctl s Hv NFE).
  Qed.
End Runs.

(* Each program of an example is evaluated once, in a lemma of its own; the examples read the hypotheses of the theorems
   off the results through analyze_pkg_run_up.  (Destructing `analyze_pkg ...` inside the example and evaluating in the
   hypothesis makes every later step compare closed runs of the engine by conversion.) *)
Definition mk_t id p c k := {| t_id := id; t_prod := p; t_cons := c; t_ctrl := k |}.

Lemma vis_forallb exported st l :
  forallb (fun s => exported s || match lookup (mp st) s with None => true | Some _ => false end) l = true ->
  forall s, In s l -> vis exported st s.
Proof.
  intros H s Hs. apply (proj1 (forallb_forall _ _) H) in Hs. apply orb_true_iff in Hs.
  destruct Hs as [Hs|Hs]; [now left | right]. now destruct (lookup (mp st) s).
Qed.

Lemma analyze_pkg_run_up exported fuel facts annots ts r :
  analyze_pkg exported fuel facts annots ts = Finished r ->
  exists up st, pkg_run_up facts annots ts up st /\ r_conflicts r = conflicts st /\ r_map r = mp st /\
                export exported up (mp st) = Some (r_fact r).
Proof.
  intros H. destruct (analyze_pkg_runs _ _ _ _ _ _ (or_introl H)) as [st0 [st1 [st2 [RA [RB [RC [Ec [Em Ex]]]]]]]].
  exists (mp st0), st2. repeat split; auto. exists st0, st1. auto.
Qed.

(* non-vacuity: exported sites 1 and 9, unexported 2 and 3; the package has 1 -> 2 -> 3 -> 9; the importer makes 1
   nilable and requires 9 to be non-nil.  Every hypothesis of the theorems holds and the flow is found both ways. *)
Definition exA_exported (s : site) : bool := Nat.eqb s 1 || Nat.eqb s 9.
Definition exA_ts : list trigger := [mk_t 10 (KCond 1) (KCond 2) None; mk_t 11 (KCond 2) (KCond 3) None; mk_t 12 (KCond 3) (KCond 9) None].
Definition exA_tsD : list trigger := [mk_t 20 KAlways (KCond 1) None; mk_t 21 (KCond 9) KAlways None].

Definition chain_1_9 : fact :=
  [(1, Undet [] [(2, 10)]); (2, Undet [(1, 10)] [(3, 11)]); (3, Undet [(2, 11)] [(9, 12)]); (9, Undet [(3, 12)] [])].

Lemma exA_pkg : analyze_pkg exA_exported 100 [] [] exA_ts =
  Finished {| r_conflicts := []; r_map := chain_1_9; r_chosen := [1; 2; 3; 9]; r_fact := Some chain_1_9 |}.
Proof. vm_compute. reflexivity. Qed.
Lemma exA_whole : exists r, analyze_pkg exA_exported 100 [] [] (exA_ts ++ exA_tsD) = Finished r /\ r_conflicts r <> [].
Proof. eexists. split; [vm_compute; reflexivity | discriminate]. Qed.
Lemma exA_importer : exists r, analyze_pkg exA_exported 100 ([] ++ opt_fact 0 (Some chain_1_9)) [] exA_tsD = Finished r /\ r_conflicts r <> [].
Proof. eexists. split; [vm_compute; reflexivity | discriminate]. Qed.

Lemma exA_holds : exists up st fo stW stI,
  pkg_run_up [] [] exA_ts up st /\ export exA_exported up (mp st) = Some fo /\ conflicts st = [] /\
  (forall s, In s (sites_of (csys_of [] [] exA_tsD)) -> vis exA_exported st s) /\
  (forall k a, In (k, a) (ctld (pkg_csys [] [] exA_ts)) -> dv st k <> None) /\
  pkg_run [] ([] ++ []) (exA_ts ++ exA_tsD) stW /\ pkg_run ([] ++ opt_fact 0 fo) [] exA_tsD stI /\
  conflicts stW <> [] /\ conflicts stI <> [] /\
  (exists f, fo = Some f /\ lookup f 2 <> None /\ lookup f 3 <> None).
Proof.
  destruct (analyze_pkg_run_up _ _ _ _ _ _ exA_pkg) as [up [st [HR [Hc [Hm He]]]]]. cbn in Hc, Hm, He.
  destruct exA_whole as [rW [EW HW]]. destruct (analyze_pkg_run _ _ _ _ _ _ (or_introl EW)) as [stW [RW [CW _]]].
  destruct exA_importer as [rI [EI HI]]. destruct (analyze_pkg_run _ _ _ _ _ _ (or_introl EI)) as [stI [RI [CI _]]].
  exists up, st, (Some chain_1_9), stW, stI. repeat split; auto; try congruence.
  - apply vis_forallb. rewrite <- Hm. reflexivity.
  - exists chain_1_9. repeat split; discriminate.
Qed.

(* the side condition on controlled triggers cannot be dropped (finding F15): the package has  nil -> 1  guarded by
   site 3, and 2 -> 3; the importer makes 2 nilable and requires 1 to be non-nil.  The whole graph has the flow
   nil -> 2 -> 3, hence nil -> 1 -> non-nil; the published fact carries 2 -> 3 but not the pending guarded trigger,
   and the importer reports nothing.  All other hypotheses hold. *)
Definition exB_exported (s : site) : bool := true.
Definition exB_ts : list trigger := [mk_t 10 KAlways (KCond 1) (Some 3); mk_t 11 (KCond 2) (KCond 3) None].
Definition exB_tsD : list trigger := [mk_t 20 KAlways (KCond 2) None; mk_t 21 (KCond 1) KAlways None].

Definition edge_2_3 : fact := [(2, Undet [] [(3, 11)]); (3, Undet [(2, 11)] [])].

Lemma exB_pkg : analyze_pkg exB_exported 100 [] [] exB_ts =
  Finished {| r_conflicts := []; r_map := edge_2_3; r_chosen := [2; 3]; r_fact := Some edge_2_3 |}.
Proof. vm_compute. reflexivity. Qed.
Lemma exB_whole : exists r, analyze_pkg exB_exported 100 [] [] (exB_ts ++ exB_tsD) = Finished r /\ r_conflicts r <> [].
Proof. eexists. split; [vm_compute; reflexivity | discriminate]. Qed.
Lemma exB_importer : exists r, analyze_pkg exB_exported 100 ([] ++ opt_fact 0 (Some edge_2_3)) [] exB_tsD = Finished r /\ r_conflicts r = [].
Proof. eexists. split; [vm_compute|]; reflexivity. Qed.

Lemma exB_refutes : exists up st fo stW stI,
  pkg_run_up [] [] exB_ts up st /\ export exB_exported up (mp st) = Some fo /\ conflicts st = [] /\
  (forall s, In s (sites_of (csys_of [] [] exB_tsD)) -> vis exB_exported st s) /\
  pkg_run [] ([] ++ []) (exB_ts ++ exB_tsD) stW /\ pkg_run ([] ++ opt_fact 0 fo) [] exB_tsD stI /\
  conflicts stW <> [] /\ conflicts stI = [] /\
  (exists k a, In (k, a) (ctld (pkg_csys [] [] exB_ts)) /\ dv st k = None).
Proof.
  destruct (analyze_pkg_run_up _ _ _ _ _ _ exB_pkg) as [up [st [HR [Hc [Hm He]]]]]. cbn in Hc, Hm, He.
  destruct exB_whole as [rW [EW HW]]. destruct (analyze_pkg_run _ _ _ _ _ _ (or_introl EW)) as [stW [RW [CW _]]].
  destruct exB_importer as [rI [EI HI]]. destruct (analyze_pkg_run _ _ _ _ _ _ (or_introl EI)) as [stI [RI [CI _]]].
  exists up, st, (Some edge_2_3), stW, stI. repeat split; auto; try congruence.
  - intros s _. now left.
  - exists 3, (ASrc 1). split; [cbn; auto|]. rewrite dv_lookup, <- Hm. reflexivity.
Qed.
