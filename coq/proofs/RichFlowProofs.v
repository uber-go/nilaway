(* M13 (model/RichFlow.v): what propagateRichChecks computes.  For a CFG whose effects are each created in one block, the
   result holds effect e at the end of block b exactly if e is not Lost there: it is the greatest fixed point of the
   must-transfer, so a check is dropped from a block only if some path from its originator really invalidates it
   (finding F26 was the least fixed point being computed instead). *)
From Coq Require Import List Bool PeanoNat.
From NM Require Import RichFlow.
From NP Require Import ListFacts.
Import ListNotations.

Lemma memb_in x l : memb x l = true <-> In x l.
Proof. apply existsb_eqb_in. Qed.

Lemma memb_false x l : memb x l = false <-> ~ In x l.
Proof. apply existsb_eqb_notin. Qed.

Lemma dedup_in x l : In x (dedup l) <-> In x l.
Proof.
  induction l as [|y l IH]; simpl; [tauto|].
  destruct (memb y l) eqn:M.
  - rewrite IH. apply memb_in in M. split; [auto|intros [<-|]; auto].
  - simpl. rewrite IH. tauto.
Qed.

Lemma nodupl_NoDup l : nodupl l = true -> NoDup l.
Proof.
  induction l as [|x l IH]; simpl; [constructor|]. intros H. apply andb_prop in H. destruct H as [Hx Hl].
  constructor; auto. apply negb_true_iff in Hx. now apply memb_false.
Qed.

Lemma in_concat_nth {A} (ls : list (list A)) j e : In e (nth j ls []) -> In e (concat ls).
Proof.
  intros I. apply in_concat. exists (nth j ls []). split; [|exact I].
  destruct (nth_in_or_default j ls []) as [H|E]; [exact H|rewrite E in I; destruct I].
Qed.

Lemma concat_nodup_unique (ls : list (list nat)) : NoDup (concat ls) ->
  forall i j e, In e (nth i ls []) -> In e (nth j ls []) -> i = j.
Proof.
  induction ls as [|l ls IH]; simpl; intros ND i j e Ii Ij; [destruct i; destruct Ii|].
  destruct (NoDup_app_inv _ _ ND) as [NDl Disj].
  destruct i as [|i], j as [|j]; auto.
  - destruct (Disj e Ii). exact (in_concat_nth ls j e Ij).
  - destruct (Disj e Ij). exact (in_concat_nth ls i e Ii).
  - f_equal. exact (IH NDl i j e Ii Ij).
Qed.

Section G.
  Variable g : rcfg.
  Notation n := (nblocks g).

  Lemma blocks_in b : In b (blocks g) <-> b < n.
  Proof. unfold blocks. rewrite in_seq. split; [intros [_ H]; exact H|intros H; split; [apply Nat.le_0_l|exact H]]. Qed.

  Lemma succs_out b : n <= b -> succs g b = [].
  Proof. intros H. unfold succs, nblocks in *. now rewrite nth_overflow. Qed.

  Lemma preds_spec b p : In p (preds g b) <-> p < n /\ live g p = true /\ In b (succs g p).
  Proof.
    unfold preds. rewrite filter_In, blocks_in, andb_true_iff, memb_in. tauto.
  Qed.

  Lemma preds_lt b p : In p (preds g b) -> p < n.
  Proof. intros I. apply preds_spec in I. apply I. Qed.

  Lemma rstep_incl r x : In x r -> In x (rstep g r).
  Proof. intros I. unfold rstep. apply dedup_in, in_or_app. now left. Qed.

  Lemma rstep_succ r p b : In p r -> In b (succs g p) -> In b (rstep g r).
  Proof.
    intros Ip Ib. unfold rstep. apply dedup_in, in_or_app. right. apply in_flat_map.
    destruct (Nat.lt_ge_cases p n) as [L|L]; [|rewrite succs_out in Ib by exact L; destruct Ib].
    exists p. split; [now apply blocks_in|]. apply memb_in in Ip. now rewrite Ip.
  Qed.

  (* the search stops at a set that its step does not enlarge, and a step only adds *)
  Lemma closure_spec fuel : forall r0 r, closure g fuel r0 = Some r ->
    (forall x, In x r0 -> In x r) /\ (forall p b, In p r -> In b (succs g p) -> In b r).
  Proof.
    induction fuel as [|f IH]; intros r0 r H; simpl in H; [discriminate|].
    destruct (subset (rstep g r0) r0) eqn:S.
    - injection H as <-. split; auto. intros p b Ip Ib.
      unfold subset in S. rewrite forallb_forall in S. apply memb_in, S. now apply rstep_succ with p.
    - destruct (IH _ _ H) as [A B]. split; auto. intros x I. apply A. now apply rstep_incl.
  Qed.

  Variable rt : list (nat * list nat).
  Hypothesis Hrt : reach_table g = Some rt.
  Hypothesis Hwf : wf_rcfg g = true.

  Lemma gen_len : length (rc_gen g) = n.
  Proof. unfold wf_rcfg in Hwf. apply andb_prop in Hwf. destruct Hwf as [H _]. now apply Nat.eqb_eq. Qed.

  Lemma gens_nodup : NoDup (concat (rc_gen g)).
  Proof. unfold wf_rcfg in Hwf. apply andb_prop in Hwf. destruct Hwf as [_ H]. now apply nodupl_NoDup. Qed.

  Lemma effects_spec e : In e (effects g) <-> exists b, b < n /\ In e (gen g b).
  Proof.
    unfold effects. rewrite dedup_in. split.
    - intros I. apply in_concat in I. destruct I as (l & Il & Ie).
      apply In_nth with (d := []) in Il. destruct Il as (b & Lb & <-). exists b. rewrite gen_len in Lb. split; auto.
    - intros (b & _ & Ie). exact (in_concat_nth _ b e Ie).
  Qed.

  Lemma gen_unique e b b' : In e (gen g b) -> In e (gen g b') -> b = b'.
  Proof. exact (concat_nodup_unique _ gens_nodup b b' e). Qed.

  Lemma origin_spec e b : b < n -> In e (gen g b) -> origin g e = Some b.
  Proof.
    intros Lb Ie. unfold origin. destruct (in_split b (blocks g)) as (l1 & l2 & E); [now apply blocks_in|].
    rewrite E, fold_left_app. cbn [fold_left]. rewrite (proj2 (memb_in _ _) Ie).
    (* from b on the answer is b: no later block creates e *)
    apply fold_left_invariant; [reflexivity|]. intros acc x Ix ->.
    destruct (memb e (gen g x)) eqn:M; [|reflexivity]. f_equal. apply (gen_unique e); [now apply memb_in|exact Ie].
  Qed.

  Lemma reaches_spec e : In e (effects g) -> exists r, reach_set g e = Some r /\ forall b, reaches rt e b = memb b r.
  Proof.
    unfold reach_table in Hrt. revert rt Hrt. generalize (effects g). induction l as [|e0 l IH]; intros rt0 H I; [destruct I|].
    simpl in H.
    destruct (fold_right _ (Some []) l) as [t|] eqn:F; [|discriminate].
    destruct (reach_set g e0) as [r0|] eqn:R0; [|discriminate]. injection H as <-.
    unfold reaches. simpl. destruct (Nat.eqb_spec e0 e) as [->|N].
    - exists r0. split; auto.
    - destruct I as [->|I]; [congruence|]. destruct (IH t eq_refl I) as (r & Hr & Hb). exists r. split; auto.
  Qed.

  Lemma reaches_origin e b : b < n -> In e (gen g b) -> reaches rt e b = true.
  Proof.
    intros Lb Ie. assert (Ie' : In e (effects g)) by (apply effects_spec; eauto).
    destruct (reaches_spec e Ie') as (r & Hr & Hb). rewrite Hb. apply memb_in.
    unfold reach_set in Hr. rewrite (origin_spec e b Lb Ie) in Hr.
    destruct (closure_spec _ _ _ Hr) as [A _]. apply A. now left.
  Qed.

  Lemma reaches_succ e p b : In e (effects g) -> reaches rt e p = true -> In b (succs g p) -> reaches rt e b = true.
  Proof.
    intros Ie Rp Ib. destruct (reaches_spec e Ie) as (r & Hr & Hb). rewrite Hb in *. apply memb_in in Rp. apply memb_in.
    unfold reach_set in Hr. destruct (origin g e); [|injection Hr as <-; destruct Rp].
    destruct (closure_spec _ _ _ Hr) as [_ B]. eauto.
  Qed.

  Inductive Lost (e : nat) : nat -> Prop :=
    | lost_unreached b : ~ In e (gen g b) -> (forall p, In p (preds g b) -> reaches rt e p = false) -> Lost e b
    | lost_killed b : ~ In e (gen g b) -> In e (kill g b) -> Lost e b
    | lost_pred b p : ~ In e (gen g b) -> In p (preds g b) -> reaches rt e p = true -> Lost e p -> Lost e b.

  Lemma at_map (f : nat -> list nat) b : b < n -> at_ (map f (blocks g)) b = f b.
  Proof.
    intros L. unfold at_, blocks. rewrite nth_indep with (d' := f 0) by (now rewrite map_length, seq_length).
    rewrite map_nth. f_equal. now apply seq_nth.
  Qed.

  Lemma at_transfer s b : b < n -> at_ (transfer g rt s) b = filter (fun e => memb e (incoming g rt s b)) (at_ s b).
  Proof. intros L. unfold transfer. now rewrite at_map. Qed.

  Lemma incoming_spec s b e : In e (incoming g rt s b) <->
    In e (gen g b) \/ (preds g b <> [] /\ (exists p, In p (preds g b) /\ In e (at_ s p)) /\
                      (forall p, In p (preds g b) -> reaches rt e p = true -> In e (at_ s p)) /\ ~ In e (kill g b)).
  Proof.
    unfold incoming. destruct (preds g b) as [|p0 ps] eqn:P.
    - split; [auto|intros [H|(H & _)]; [auto|congruence]].
    - rewrite in_app_iff, filter_In, dedup_in, in_flat_map. split.
      + intros [H|(Ex & F)]; [now left|right]. apply andb_prop in F. destruct F as [A K].
        split; [discriminate|]. split; [exact Ex|]. split; [|now apply memb_false, negb_true_iff].
        intros p' Ip' R. apply (proj1 (forallb_forall _ _) A) in Ip'. rewrite R in Ip'. now apply memb_in.
      + intros [H|(_ & Ex & A & K)]; [now left|right]. split; [exact Ex|]. apply andb_true_intro.
        split; [|now apply negb_true_iff, memb_false]. apply forallb_forall. intros p' Ip'.
        destruct (reaches rt e p') eqn:R; [|reflexivity]. apply memb_in. auto.
  Qed.

  (* what every state of the iteration contains: everything that is not Lost *)
  Definition Keeps (s : state) : Prop := forall b e, b < n -> In e (effects g) -> ~ Lost e b -> In e (at_ s b).

  Lemma not_lost_cases b e : ~ Lost e b ->
    In e (gen g b) \/ ((exists p, In p (preds g b) /\ reaches rt e p = true) /\ ~ In e (kill g b) /\
                      forall p, In p (preds g b) -> reaches rt e p = true -> ~ Lost e p).
  Proof.
    intros NL. destruct (memb e (gen g b)) eqn:G; [left; now apply memb_in|right]. apply memb_false in G.
    split; [|split].
    - destruct (existsb (reaches rt e) (preds g b)) eqn:X.
      + apply existsb_exists in X. destruct X as (p & I & R). eauto.
      + exfalso. apply NL. apply lost_unreached; auto. exact (proj1 (existsb_false _ _) X).
    - intros K. apply NL. now apply lost_killed.
    - intros p I R L. apply NL. now apply lost_pred with p.
  Qed.

  Lemma keeps_init : Keeps (init g rt).
  Proof.
    intros b e Lb Ie NL. unfold init. rewrite at_map by exact Lb. apply dedup_in, in_or_app.
    destruct (not_lost_cases b e NL) as [G|((p & I & R) & _)]; [now left|right].
    apply filter_In. split; auto. apply existsb_exists. eauto.
  Qed.

  Lemma keeps_transfer s : Keeps s -> Keeps (transfer g rt s).
  Proof.
    intros K b e Lb Ie NL. rewrite at_transfer by exact Lb. apply filter_In. split; [now apply K|].
    apply memb_in, incoming_spec.
    destruct (not_lost_cases b e NL) as [G|((p & I & R) & NK & A)]; [now left|right].
    split; [intros E; rewrite E in I; destruct I|]. split; [|split].
    - exists p. split; [exact I|]. exact (K p e (preds_lt _ _ I) Ie (A p I R)).
    - intros q Iq Rq. exact (K q e (preds_lt _ _ Iq) Ie (A q Iq Rq)).
    - exact NK.
  Qed.

  (* what every state of the iteration is contained in: the optimistic start *)
  Definition Below (s : state) : Prop := forall b e, b < n -> In e (at_ s b) -> In e (at_ (init g rt) b).

  Lemma below_transfer s : Below s -> Below (transfer g rt s).
  Proof. intros B b e Lb I. rewrite at_transfer in I by exact Lb. apply filter_In in I. apply B; tauto. Qed.

  Lemma init_reaches b e : b < n -> In e (at_ (init g rt) b) -> In e (effects g) /\ reaches rt e b = true.
  Proof.
    intros Lb I. unfold init in I. rewrite at_map in I by exact Lb. apply dedup_in, in_app_iff in I.
    destruct I as [G|F].
    - split; [apply effects_spec; eauto|now apply reaches_origin].
    - apply filter_In in F. destruct F as [Ie X]. split; auto.
      apply existsb_exists in X. destruct X as (p & Ip & R). apply preds_spec in Ip.
      apply reaches_succ with p; tauto.
  Qed.

  (* the iteration ends with transfer s1 for a state s1 whose sizes transfer does not change; s1 has every property that
     the start has and transfer preserves *)
  Lemma iterate_inv (P : state -> Prop) : (forall s, P s -> P (transfer g rt s)) ->
    forall fuel s s', P s -> iterate g rt fuel s = Some s' ->
    exists s1, P s1 /\ same_size g s1 (transfer g rt s1) = true /\ s' = transfer g rt s1.
  Proof.
    intros T. induction fuel as [|f IH]; intros s s' Ps H; simpl in H; [discriminate|].
    destruct (same_size g s (transfer g rt s)) eqn:SS; [injection H as <-; eauto|]. apply (IH (transfer g rt s)); auto.
  Qed.

  Definition Fixed (s : state) : Prop := forall b, b < n -> at_ (transfer g rt s) b = at_ s b.

  (* the sizes did not change, so nothing was filtered out *)
  Lemma same_size_fixed s : same_size g s (transfer g rt s) = true -> Fixed s.
  Proof.
    intros SS c Lc. unfold same_size in SS. rewrite forallb_forall in SS.
    specialize (SS c (proj2 (blocks_in c) Lc)). apply Nat.eqb_eq in SS.
    rewrite at_transfer in * by exact Lc. apply filter_same_length. rewrite <- SS. apply le_n.
  Qed.

  Lemma fixed_below_sound s : Fixed s -> Below s -> forall e b, Lost e b -> b < n -> ~ In e (at_ s b).
  Proof.
    intros F B e.
    (* at a fixed point, what a block holds comes in *)
    assert (Inc : forall b, b < n -> In e (at_ s b) -> In e (incoming g rt s b)).
    { intros b Lb I. rewrite <- (F b Lb), at_transfer in I by exact Lb. apply filter_In in I. now apply memb_in. }
    induction 1 as [b NG NR|b NG Kl|b p NG Ip R L IH]; intros Lb I;
      apply Inc, incoming_spec in I; auto; destruct I as [G|(_ & (q & Iq & Ieq) & A & NK)]; try exact (NG G).
    - pose proof (preds_lt _ _ Iq) as Lq.
      destruct (init_reaches q e Lq (B q e Lq Ieq)) as [_ Rq]. rewrite (NR q Iq) in Rq. discriminate.
    - exact (NK Kl).
    - apply (IH (preds_lt _ _ Ip)). now apply A.
  Qed.

  Theorem propagate_spec fuel s : iterate g rt fuel (init g rt) = Some s ->
    forall b e, b < n -> In e (effects g) -> (In e (at_ s b) <-> ~ Lost e b).
  Proof.
    intros H. destruct (iterate_inv (fun s => Keeps s /\ Below s)) with (3 := H) as (s1 & [K B] & SS & ->).
    { intros s0 [K B]. split; [now apply keeps_transfer|now apply below_transfer]. }
    { split; [apply keeps_init|intros b e _ I; exact I]. }
    (* the result holds in every block what s1 holds: the statement is proved of s1 *)
    apply same_size_fixed in SS. intros b e Lb Ie. rewrite (SS b Lb).
    split; [intros I L; exact (fixed_below_sound s1 SS B e b L Lb I)|now apply K].
  Qed.
End G.

Theorem propagate_is_gfp g fuel s : wf_rcfg g = true -> propagate g fuel = Some s ->
  exists rt, reach_table g = Some rt /\
    forall b e, b < nblocks g -> In e (effects g) -> (In e (at_ s b) <-> ~ Lost g rt e b).
Proof.
  intros W H. unfold propagate in H. destruct (reach_table g) as [rt|] eqn:R; [|discriminate].
  exists rt. split; auto. intros. now apply (propagate_spec g rt R W fuel).
Qed.

(* non-vacuity: the nested-loop shape of finding F26 -- the check created in the inner loop holds after both loops when
   nothing invalidates it, and is lost everywhere else when the outer loop body invalidates it *)
Definition ex_nested (k : list nat) : rcfg :=
  {| rc_succs := [[1; 4]; [2; 3]; [1]; [0]; []]; rc_live := [true; true; true; true; true];
     rc_gen := [[]; []; [7]; []; []]; rc_kill := [[]; []; []; k; []] |}.
Example propagate_examples :
  propagate (ex_nested []) 50 = Some [[7]; [7]; [7]; [7]; [7]] /\ propagate (ex_nested [7]) 50 = Some [[]; []; [7]; []; []] /\
  wf_rcfg (ex_nested []) = true.
Proof. vm_compute. repeat split. Qed.
