(* Facts about chooseSitesToExport / inferredValDiff / Export (model M1, Section Export). *)
From Coq Require Import List Bool.
From NM Require Import Engine.
From NP Require Import ListFacts EngineBasics EngineStep EngineMain.
Import ListNotations.

Lemma mem_In s l : mem s l = true <-> In s l.
Proof. apply existsb_eqb_in. Qed.

Lemma mem_cons x y l : mem x (y :: l) = Nat.eqb x y || mem x l.
Proof. reflexivity. Qed.

Section Chosen.
  Variable exported : site -> bool.

  Lemma marks_toExp fuel m x : forall mk s, In x (toExp mk) ->
    In x (toExp (mark_rfe exported fuel m mk s)) /\ In x (toExp (mark_re exported fuel m mk s)).
  Proof.
    induction fuel as [|f IH]; intros mk s Hx; cbn; auto.
    split; (destruct (_ && _); auto; apply fold_left_invariant; [destruct (mem s _); cbn; auto | intros; now apply IH]).
  Qed.

  Definition choose_step (m0 : list (site * ival)) (mk : marks) (kv : site * ival) : marks :=
    let s := fst kv in
    if exported s then
      let mk0 := {| toExp := s :: toExp mk; rfe := rfe mk; re := re mk |} in
      let mk1 := fold_left (mark_re exported (S (length m0)) m0) (ins_of m0 s) mk0 in
      fold_left (mark_rfe exported (S (length m0)) m0) (outs_of m0 s) mk1
    else mk.

  Lemma choose_marks_eq m : choose_marks exported m = fold_left (choose_step m) m {| toExp := []; rfe := []; re := [] |}.
  Proof. reflexivity. Qed.

  Lemma choose_step_toExp m0 mk kv x :
    In x (toExp mk) \/ (x = fst kv /\ exported x = true) -> In x (toExp (choose_step m0 mk kv)).
  Proof.
    intros H. unfold choose_step. destruct (exported (fst kv)) eqn:E.
    - do 2 (apply fold_left_invariant; [|intros; now apply marks_toExp]). cbn. destruct H as [H|[-> _]]; auto.
    - destruct H as [H|[-> H]]; [auto | congruence].
  Qed.

  Lemma choose_exported m s : In s (map fst m) -> exported s = true -> In s (choose_sites_to_export exported m).
  Proof.
    intros H E. unfold choose_sites_to_export. rewrite choose_marks_eq. generalize m at 1. intros m0.
    enough (G : forall mk, In s (toExp mk) \/ In s (map fst m) -> In s (toExp (fold_left (choose_step m0) m mk))) by auto.
    clear H. induction m as [|kv m IH]; cbn [fold_left map In]; intros mk H; [tauto|].
    apply IH. destruct H as [H|[<-|H]]; auto using choose_step_toExp.
  Qed.
End Chosen.

Lemma In_edges_diff n o x t : In (x, t) (edges_diff n o) <-> In (x, t) n /\ lookup o x = None.
Proof. unfold edges_diff. rewrite filter_In. cbn. destruct (lookup o x); split; intros [H E]; try discriminate; auto. Qed.

Lemma val_diff_Some v uv d : val_diff v uv = Some (Some d) ->
  exists oi oo, uv = Undet oi oo /\
    d = match v with Det _ => v | Undet ni no => Undet (edges_diff ni oi) (edges_diff no oo) end.
Proof.
  destruct v as [en|ni no], uv as [eo|oi oo]; cbn; try discriminate.
  - destruct (Bool.eqb _ _); discriminate.
  - intros E. exists oi, oo. split; congruence.
  - intros E. exists oi, oo. split; auto. destruct (edges_diff ni oi), (edges_diff no oo); congruence.
Qed.

Lemma val_diff_undet ni no oi oo : edges_diff ni oi <> [] \/ edges_diff no oo <> [] ->
  val_diff (Undet ni no) (Undet oi oo) = Some (Some (Undet (edges_diff ni oi) (edges_diff no oo))).
Proof. cbn. destruct (edges_diff ni oi), (edges_diff no oo); intros [H|H]; congruence. Qed.

Section ExportPairs.
  Variables (chosen : list site) (up : list (site * ival)).

  Lemma export_pairs_In m : forall f, export_pairs chosen up m = Some f -> forall s d,
    In (s, d) f <-> exists v, In (s, v) m /\ mem s chosen = true /\
                      match lookup up s with Some uv => val_diff v uv = Some (Some d) | None => d = v end.
  Proof.
    induction m as [|[k v] m IH]; cbn; intros f Hf s d.
    - inversion Hf. split; [intros [] | intros [v [[] _]]].
    - destruct (export_pairs chosen up m) as [rest|]; [|discriminate]. specialize (IH rest eq_refl s d).
      assert (Hd : In (s, d) f <-> In (s, d) rest \/ (k = s /\ mem k chosen = true /\
                     match lookup up k with Some uv => val_diff v uv = Some (Some d) | None => d = v end)).
      { clear IH. destruct (mem k chosen); [destruct (lookup up k) as [uv|]; [destruct (val_diff v uv) as [[d'|]|]|]|];
          try discriminate Hf; injection Hf as <-; cbn; intuition congruence. }
      split.
      + intros H. apply Hd in H. destruct H as [H|[<- H]]; [apply IH in H; destruct H as [v0 [Hin H]]|]; eauto.
      + intros [v0 [[E|Hin] H]]; apply Hd; [inversion E; subst; auto | left; apply IH; eauto].
  Qed.

  Lemma export_pairs_None m : export_pairs chosen up m = None <->
    exists s v uv, In (s, v) m /\ mem s chosen = true /\ lookup up s = Some uv /\ val_diff v uv = None.
  Proof.
    induction m as [|[k v] m IH]; cbn.
    - split; [discriminate | intros (s & v & uv & [] & _)].
    - destruct (export_pairs chosen up m) as [rest|].
      + split.
        * intros H. exists k, v. destruct (mem k chosen); [|discriminate].
          destruct (lookup up k) as [uv|]; [|discriminate]. exists uv.
          destruct (val_diff v uv) as [[d|]|]; [discriminate..|auto].
        * intros (s & v0 & uv & [E|Hin] & Hm & Hu & Hd).
          -- inversion E; subst. now rewrite Hm, Hu, Hd.
          -- enough (Some rest = None) by discriminate. apply IH. eauto 8.
      + split; [intros _ | reflexivity]. destruct (proj1 IH eq_refl) as (s & v0 & uv & Hin & H). eauto 8.
  Qed.

  Lemma export_pairs_lookup m f s d : NoDup (map fst m) -> export_pairs chosen up m = Some f ->
    In (s, d) f -> lookup f s = Some d.
  Proof.
    intros Hnd Hf Hin. destruct (lookup f s) as [d'|] eqn:El; [|now apply In_lookup_not_None in Hin].
    apply lookup_Some_In, (export_pairs_In _ _ Hf) in El. apply (export_pairs_In _ _ Hf) in Hin.
    destruct El as [v' [Hv' [_ H']]], Hin as [v [Hv [_ H]]].
    apply (In_lookup_nodup _ _ _ Hnd) in Hv, Hv'. destruct (lookup up s); congruence.
  Qed.

  Lemma export_pairs_det m f s e : NoDup (map fst m) -> export_pairs chosen up m = Some f ->
    lookup m s = Some (Det e) -> In s chosen ->
    lookup f s = Some (Det e) \/ exists e', lookup up s = Some (Det e') /\ eval_expl e' = eval_expl e.
  Proof.
    intros Hnd Hf Hl Hc. apply lookup_Some_In in Hl. apply mem_In in Hc.
    assert (Hp : forall d, match lookup up s with Some uv => val_diff (Det e) uv = Some (Some d) | None => d = Det e end ->
                           lookup f s = Some d).
    { intros d H. apply (export_pairs_lookup m); auto. apply (export_pairs_In _ _ Hf). eauto. }
    destruct (lookup up s) as [[eo|oi oo]|] eqn:Eu; [right | left; now apply Hp..].
    exists eo. split; auto. destruct (Bool.eqb (eval_expl e) (eval_expl eo)) eqn:Eb; [symmetry; now apply eqb_prop|].
    enough (export_pairs chosen up m = None) by congruence.
    apply export_pairs_None. exists s, (Det e), (Det eo). cbn. now rewrite Eb.
  Qed.

  Lemma export_pairs_sub : forall m f s v,
    export_pairs chosen up m = Some f -> In (s, v) f ->
    exists v0, In (s, v0) m /\
      match v, v0 with
      | Det e, Det e0 => e = e0
      | Undet di do, Undet i o => (forall x, In x di -> In x i) /\ (forall x, In x do -> In x o)
      | _, _ => False
      end.
  Proof.
    intros m f s v Hf Hin. apply (export_pairs_In _ _ Hf) in Hin. destruct Hin as [v0 [Hin [_ H]]].
    exists v0. split; auto.
    destruct (lookup up s) as [uv|]; [apply val_diff_Some in H; destruct H as [oi [oo [_ ->]]] | subst v]; destruct v0; auto.
    split; intros [x t] Hx; now apply In_edges_diff in Hx.
  Qed.

  (* b = true: the outgoing edges, b = false: the incoming ones.  An edge of a chosen site is in the increment unless
     upstream lists it already *)
  Lemma export_pairs_edge (b : bool) m f x i o y t :
    export_pairs chosen up m = Some f -> In (x, Undet i o) m -> mem x chosen = true -> In (y, t) (if b then o else i) ->
    (exists di do, In (x, Undet di do) f /\ In (y, t) (if b then do else di)) \/
    (exists oi oo t', lookup up x = Some (Undet oi oo) /\ lookup (if b then oo else oi) y = Some t').
  Proof.
    intros Hf Hin Hm Hy. pose proof (export_pairs_In _ _ Hf x) as K.
    destruct (lookup up x) as [[eo|oi oo]|] eqn:Eu.
    - enough (export_pairs chosen up m = None) by congruence.
      apply export_pairs_None. exists x, (Undet i o), (Det eo). auto.
    - destruct (lookup (if b then oo else oi) y) as [t'|] eqn:Ey; [right; eauto|]. left.
      assert (Hd : In (y, t) (if b then edges_diff o oo else edges_diff i oi)) by (destruct b; apply In_edges_diff; auto).
      exists (edges_diff i oi), (edges_diff o oo). split; [|exact Hd].
      apply K. exists (Undet i o). repeat split; auto.
      apply val_diff_undet. destruct b; [right|left]; intros E; rewrite E in Hd; destruct Hd.
    - left. exists i, o. split; [apply K; eauto | exact Hy].
  Qed.

  (* the increment contains nothing the dependencies already published *)
  Lemma export_pairs_increment m f : export_pairs chosen up m = Some f -> forall s d, In (s, d) f ->
    match lookup up s with
    | Some (Det _) => False
    | Some (Undet oi oo) =>
        match d with
        | Det _ => True
        | Undet di do => (forall x t, In (x, t) di -> lookup oi x = None) /\ (forall x t, In (x, t) do -> lookup oo x = None)
        end
    | None => True
    end.
  Proof.
    intros Hf s d Hin. apply (export_pairs_In _ _ Hf) in Hin. destruct Hin as [v [_ [_ H]]].
    destruct (lookup up s) as [uv|]; auto. apply val_diff_Some in H. destruct H as [oi [oo [-> ->]]].
    destruct v; auto. split; intros x t Hx; now apply In_edges_diff in Hx.
  Qed.
End ExportPairs.

Lemma export_eq exported up m : export exported up m =
  option_map (fun l => match l with [] => None | _ => Some l end) (export_pairs (choose_sites_to_export exported m) up m).
Proof. unfold export. destruct m; [reflexivity|]. now destruct (export_pairs _ _ _) as [[|]|]. Qed.

Lemma export_inv exported up m fo : export exported up m = Some fo ->
  exists l, export_pairs (choose_sites_to_export exported m) up m = Some l /\ fo = match l with [] => None | _ => Some l end.
Proof. rewrite export_eq. destruct (export_pairs _ _ _) as [l|]; [|discriminate]. cbn. intros [= <-]. eauto. Qed.

Theorem export_increment exported up st2 f :
  export exported up (mp st2) = Some (Some f) -> forall s d, In (s, d) f ->
  match lookup up s with
  | Some (Det _) => False
  | Some (Undet oi oo) =>
      match d with
      | Det _ => True
      | Undet di do => (forall x t, In (x, t) di -> lookup oi x = None) /\ (forall x t, In (x, t) do -> lookup oo x = None)
      end
  | None => True
  end.
Proof.
  intros He. apply export_inv in He. destruct He as [l [Ep E]].
  assert (l = f) as -> by (destruct l; congruence). exact (export_pairs_increment _ _ _ _ Ep).
Qed.

Section PackageExport.
  Variable exported : site -> bool.
  Variables (facts : list (nat * fact)) (annots : list (site * bool)) (ts : list trigger).

  (* the upstream snapshot and the final map of a package run *)
  Definition pkg_run_up (up : list (site * ival)) (st2 : state) : Prop :=
    exists st0 st1,
      Run init_state (upstream_items facts) st0 /\ up = mp st0 /\
      Run st0 (annot_items annots) st1 /\
      Run (fst (build_pkg_work st1 ts)) (snd (build_pkg_work st1 ts)) st2.

  Lemma pkg_run_up_run up st2 : pkg_run_up up st2 -> pkg_run facts annots ts st2.
  Proof. intros [st0 [st1 [RA [_ [RB RC]]]]]. exists st0, st1. auto. Qed.

  Lemma up_det_kept up st2 s e : pkg_run_up up st2 -> lookup up s = Some (Det e) ->
    exists e', lookup (mp st2) s = Some (Det e') /\ eval_expl e' = eval_expl e.
  Proof.
    intros [st0 [st1 [RA [-> [RB RC]]]]] Hl.
    assert (D : dv st2 s = Some (eval_expl e)).
    { apply (Run_dv_mono _ _ _ _ _ RC). change (dv st1 s = Some (eval_expl e)).
      apply (Run_dv_mono _ _ _ _ _ RB). now rewrite dv_lookup, Hl. }
    rewrite dv_lookup in D. destruct (lookup (mp st2) s) as [[e'|i o]|]; try discriminate.
    exists e'. split; congruence.
  Qed.

  Lemma pkg_run_nodup up st2 : pkg_run_up up st2 -> NoDup (map fst (mp st2)).
  Proof.
    intros [st0 [st1 [RA [_ [RB RC]]]]].
    eapply Run_nodup; eauto. change (NoDup (map fst (mp st1))).
    eapply Run_nodup; eauto. eapply Run_nodup; eauto. constructor.
  Qed.

  (* Export never hits its "does not supersede" panic on the state a package run produces *)
  Theorem export_no_panic up st2 : pkg_run_up up st2 -> export exported up (mp st2) <> None.
  Proof.
    intros HR He. rewrite export_eq in He.
    destruct (export_pairs _ up (mp st2)) eqn:Ep; [discriminate|].
    apply export_pairs_None in Ep. destruct Ep as (s & v & uv & Hin & _ & Hu & Hd).
    apply In_lookup_nodup in Hin; [|eapply pkg_run_nodup; eauto].
    destruct uv as [eo|oi oo].
    - destruct (up_det_kept _ _ _ _ HR Hu) as [e' [Hl Hev]].
      rewrite Hl in Hin. inversion Hin; subst v. cbn in Hd. rewrite Hev, Bool.eqb_reflx in Hd. discriminate.
    - destruct v as [en|ni no]; cbn in Hd; [discriminate|].
      destruct (edges_diff ni oi), (edges_diff no oo); discriminate.
  Qed.

  Theorem export_verdicts_kept up st2 fo s e :
    pkg_run_up up st2 -> export exported up (mp st2) = Some fo ->
    exported s = true -> lookup (mp st2) s = Some (Det e) ->
    (exists f e', fo = Some f /\ lookup f s = Some (Det e') /\ eval_expl e' = eval_expl e) \/
    (exists e', lookup up s = Some (Det e') /\ eval_expl e' = eval_expl e).
  Proof.
    intros HR He Hx Hl. apply export_inv in He. destruct He as [l [Ep ->]].
    destruct (export_pairs_det _ _ _ _ _ _ (pkg_run_nodup _ _ HR) Ep Hl) as [H|H]; auto.
    - apply choose_exported; auto. eapply lookup_In_fst; eauto.
    - left. exists l, e. destruct l; [discriminate|auto].
  Qed.
End PackageExport.
