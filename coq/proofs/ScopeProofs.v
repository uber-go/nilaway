(* C12: the package and file scope flags (model/Scope.v) select what they say, and the analyzers of the inventory consult them. *)
From Coq Require Import String List Bool PeanoNat.
From NM Require Import Scope.
From NG Require Inventory.
From NP Require Import ListFacts.
Import ListNotations.

Lemma has_prefix_spec s p : has_prefix s p = true <-> exists t, s = p ++ t.
Proof.
  revert s. induction p as [|b p IH]; intros s; cbn.
  - split; [intros _; now exists s | auto].
  - destruct s as [|a s].
    { split; [discriminate | intros [t H]; discriminate]. }
    rewrite andb_true_iff, Nat.eqb_eq, IH. split.
    + intros [-> [t ->]]. now exists t.
    + intros [t H]. inversion H; subst. split; auto. now exists t.
Qed.

(* a package is analysed iff its path starts with an include prefix and with no exclude prefix *)
Theorem scope_iff inc exc path :
  is_pkg_in_scope inc exc path = true <->
  (exists i, In i inc /\ has_prefix path i = true) /\ (forall e, In e exc -> has_prefix path e = false).
Proof.
  induction inc as [|i inc IH]; cbn.
  - split; [discriminate | intros [[i [[] _]] _]].
  - destruct (has_prefix path i) eqn:E.
    + rewrite negb_true_iff, existsb_false. split; [intros H; split; [exists i; auto|exact H]|intros [_ H]; exact H].
    + rewrite IH. split.
      * intros [[j [Hj Ej]] H]. split; auto. exists j. auto.
      * intros [[j [[<-|Hj] Ej]] H]; [congruence|]. split; auto. exists j. auto.
Qed.

Theorem exclude_wins inc exc path e : In e exc -> has_prefix path e = true -> is_pkg_in_scope inc exc path = false.
Proof.
  intros He Hp. destruct (is_pkg_in_scope inc exc path) eqn:E; auto.
  apply scope_iff in E. destruct E as [_ H]. rewrite (H e He) in Hp. discriminate.
Qed.

Theorem empty_include_means_all exc_flag path :
  in_scope_flags [] exc_flag path = negb (existsb (has_prefix path) (excludes_of_flag exc_flag)).
Proof. reflexivity. Qed.

Theorem empty_flags_all path : in_scope_flags [] [] path = true.
Proof. reflexivity. Qed.

(* the elements of a split flag are exactly its comma-separated pieces: joining them gives the flag back *)
Fixpoint join_comma (l : list str) : str :=
  match l with
  | [] => []
  | [x] => x
  | x :: l' => x ++ comma :: join_comma l'
  end.

Lemma split_comma_nonempty s : forall cur, split_comma s cur <> [].
Proof.
  induction s as [|c s IH]; intros cur; cbn; [discriminate|].
  destruct (Nat.eqb c comma); [discriminate | apply IH].
Qed.

Lemma join_comma_cons x l : l <> [] -> join_comma (x :: l) = x ++ comma :: join_comma l.
Proof. destruct l; [congruence|reflexivity]. Qed.

Lemma split_comma_join s : forall cur, join_comma (split_comma s cur) = rev cur ++ s.
Proof.
  induction s as [|c s IH]; intros cur; cbn.
  - now rewrite app_nil_r.
  - destruct (Nat.eqb_spec c comma) as [->|_].
    + rewrite join_comma_cons by apply split_comma_nonempty. now rewrite IH.
    + rewrite IH. cbn. now rewrite <- app_assoc.
Qed.

Theorem split_join flag : join_comma (split_comma flag []) = flag.
Proof. apply (split_comma_join flag []). Qed.

Lemma split_no_comma s : forall cur, ~ In comma cur -> forall x, In x (split_comma s cur) -> ~ In comma x.
Proof.
  induction s as [|c s IH]; intros cur Hc x Hx; cbn in Hx.
  - destruct Hx as [<-|[]]. now rewrite <- in_rev.
  - destruct (Nat.eqb c comma) eqn:E.
    + destruct Hx as [<-|Hx]; [now rewrite <- in_rev | apply (IH [] (fun H => H) x Hx)].
    + apply Nat.eqb_neq in E. apply (IH (c :: cur)); auto. intros [H|H]; auto.
Qed.

Theorem file_scope_spec templ excluded present :
  is_file_in_scope templ excluded present = true <->
  templ = true \/ (forall e, In e excluded -> ~ In e present).
Proof.
  unfold is_file_in_scope. rewrite orb_true_iff, negb_true_iff, existsb_false.
  split; (intros [H|H]; [left; exact H|right]); intros e He; apply existsb_eqb_notin, H, He.
Qed.

Example scope_example :
  is_pkg_in_scope [[1;2]; [1]] [[1;2;3]] [1;2;4] = true /\ is_pkg_in_scope [[1;2]; [1]] [[1;2;3]] [1;2;3;9] = false /\
  is_pkg_in_scope [[1;2]] [] [7] = false.
Proof. repeat split. Qed.

(* the regenerated inventory of analyzers: everything that can publish facts or findings starts with the
   package-scope guard *)
(* analyzers that run no analysis of their own: the flag holder, the two top-level wrappers (they only relay the
   accumulation analyzer's result) and the nolint reader, whose NoLint fact is outside C12's statement *)
Definition scope_exempt : list string :=
  ["config/config.go:Analyzer"; "nilaway.go:Analyzer"; "cmd/nilaway/main.go:Analyzer"; "diagnostic/nolint.go:NoLintAnalyzer"]%string.

Definition analyzer_ok (a : string * bool * bool) : bool :=
  let '(name, facts, guarded) := a in
  if existsb (String.eqb name) scope_exempt then true else guarded.

Lemma analyzers_guarded : forallb analyzer_ok Inventory.analyzers_gen = true.
Proof. vm_compute. reflexivity. Qed.

(* the ones that declare the three fact kinds of the statement are present and guarded *)
Lemma fact_analyzers_guarded :
  forallb (fun n => existsb (fun a => let '(name, facts, guarded) := a in String.eqb name n && facts && guarded)
                            Inventory.analyzers_gen)
    ["accumulation/analyzer.go:Analyzer"; "assertion/affiliation/analyzer.go:Analyzer";
     "assertion/function/functioncontracts/analyzer.go:Analyzer"]%string = true.
Proof. vm_compute. reflexivity. Qed.

(* loops over the package's files: every one of them first consults IsFileInScope, except lookups by file name,
   the experimental struct-init-v2 collector, the grouping key (which filters inside its condition) and the nolint
   reader *)
Definition file_loop_exempt : list string :=
  ["assertion/function/assertiontree/util.go:lookupAstFromFile:files1";
   "assertion/function/assertiontree/util.go:lookupAstFromFilename:files1";
   "assertion/function/structfieldeffects/collector.go:computeBoundaryFieldEffects:files1";
   "diagnostic/conflict.go:groupConflicts:files1";
   "diagnostic/nolint.go:run:files1"]%string.

Lemma file_loops_guarded :
  forallb (fun a : string * bool => snd a || existsb (String.eqb (fst a)) file_loop_exempt) Inventory.file_loops_gen = true.
Proof. vm_compute. reflexivity. Qed.
