(* M2b (model/Report.v): the reported position and the flow of a conflict; Engine.toPos on fake files. *)
From Coq Require Import List ZArith Lia.
From NM Require Import Diag Report.
From NG Require Import Consts.
Import ListNotations.

Lemma ends_with {A} (l : list A) r : l <> [] -> last l r = r -> exists l', l = l' ++ [r].
Proof. intros N E. exists (removelast l). rewrite <- E. now apply app_removelast_last. Qed.

Lemma over_conflict_pos id nil_chain nonnil_chain r :
  nonnil_chain <> [] -> last nonnil_chain r = r ->
  c_pos (over_conflict id nil_chain nonnil_chain) = rs_pos r.
Proof.
  intros Hne Hlast. destruct (ends_with _ _ Hne Hlast) as [l ->]. cbn. now rewrite rev_app_distr.
Qed.

Lemma over_conflict_flow id nil_chain nonnil_chain :
  nonnil_chain <> [] -> c_nonnil (over_conflict id nil_chain nonnil_chain) <> [] /\
  length (c_nonnil (over_conflict id nil_chain nonnil_chain)) = length nonnil_chain /\
  length (c_nil (over_conflict id nil_chain nonnil_chain)) = length nil_chain.
Proof.
  intros H. cbn. rewrite rev_length, !map_length. repeat split; auto.
  destruct nonnil_chain; [congruence|discriminate].
Qed.

(* the last flow step IS the reported step *)
Lemma over_conflict_last_step id nil_chain nonnil_chain r :
  nonnil_chain <> [] -> last nonnil_chain r = r ->
  last (c_nonnil (over_conflict id nil_chain nonnil_chain)) (rs_node r) = rs_node r.
Proof.
  intros Hne Hlast. destruct (ends_with _ _ Hne Hlast) as [l ->]. cbn. rewrite map_app. apply last_last.
Qed.

Lemma single_conflict_flow id p n src : c_pos (single_conflict id p n src) = p /\ c_nonnil (single_conflict id p n src) = [n].
Proof. split; reflexivity. Qed.

Open Scope Z_scope.
Definition to_pos := to_pos_fake fake_file_max_lines topos_regrows topos_sized_by_line.

(* with the regenerated constants and guards the fake file is always large enough: every line >= 1 gets a valid position
   on that very line, whatever fake file already exists for the name *)
Lemma fake_size_fits existing line : line <= fake_size fake_file_max_lines topos_regrows topos_sized_by_line existing line.
Proof.
  unfold fake_size, topos_regrows, topos_sized_by_line. cbn [andb]. destruct existing as [sz|]; [|lia].
  destruct (Z.ltb_spec sz line); lia.
Qed.

Lemma to_pos_total existing line : 1 <= line -> to_pos existing line = Some line.
Proof.
  intros H. unfold to_pos, to_pos_fake.
  now rewrite (proj2 (Z.leb_le 1 line) H), (proj2 (Z.leb_le _ _) (fake_size_fits existing line)).
Qed.

(* with a fake file of fixed size that is not regrown, as the code had it before the repair, the panic is reachable *)
Lemma to_pos_unguarded_refuted : to_pos_fake fake_file_max_lines false false None 70000 = None.
Proof. reflexivity. Qed.
