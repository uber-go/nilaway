(* C04, C16: the collector of the concurrent analyses and the sorts at the engine's boundary erase the order of arrival. *)
From Coq Require Import List PeanoNat Lia Permutation.
From NM Require Import Engine Pipeline.
From NP Require Import ListFacts.
Import ListNotations.

Section CollectorProofs.
  Variable T : Type.

  Lemma set_nth_length (l : list (list T)) i v : length (set_nth T l i v) = length l.
  Proof. revert i; induction l as [|x l IH]; intros [|i]; cbn; auto. Qed.

  Lemma nth_set_nth_same (l : list (list T)) i v : i < length l -> nth i (set_nth T l i v) [] = v.
  Proof. revert i; induction l as [|x l IH]; intros [|i] H; cbn in *; try lia; auto. apply IH. lia. Qed.

  Lemma nth_set_nth_other (l : list (list T)) i j v : i <> j -> nth j (set_nth T l i v) [] = nth j l [].
  Proof.
    revert i j; induction l as [|x l IH]; intros [|i] [|j] H; cbn; auto; try congruence.
  Qed.

  Lemma collect_slots (analyse : nat -> list T) : forall arrivals arr,
    (forall i ts, In (i, ts) arrivals -> ts = analyse i) ->
    forall i, i < length arr ->
      nth i (fold_left (fun a r => set_nth T a (fst r) (snd r)) arrivals arr) [] =
      if existsb (Nat.eqb i) (map fst arrivals) then analyse i else nth i arr [].
  Proof.
    induction arrivals as [|[j ts] arrivals IH]; intros arr Hin i Hi; cbn [fold_left map existsb fst snd]; auto.
    rewrite IH; [|intros; apply Hin; right; auto | now rewrite set_nth_length].
    destruct (Nat.eqb_spec i j) as [<-|N]; cbn; [|now rewrite nth_set_nth_other by congruence].
    rewrite nth_set_nth_same, (Hin i ts) by (cbn; auto). now destruct (existsb _ _).
  Qed.

  Lemma fold_set_nth_length arrivals : forall (arr : list (list T)),
    length (fold_left (fun a r => set_nth T a (fst r) (snd r)) arrivals arr) = length arr.
  Proof.
    intros arr. apply (fold_left_invariant (fun a => length a = length arr)); [reflexivity|].
    intros a r _ H. now rewrite set_nth_length.
  Qed.

  (* C16: every completion order yields exactly the sequential result *)
  Theorem collect_any_order n (analyse : nat -> list T) (arrivals : list (nat * list T)) :
    Permutation (map fst arrivals) (seq 0 n) ->
    (forall i ts, In (i, ts) arrivals -> ts = analyse i) ->
    collect T n arrivals = sequential T n analyse.
  Proof.
    intros Hperm Hres. unfold collect, sequential. f_equal.
    apply (nth_ext _ _ [] []).
    - rewrite fold_set_nth_length, repeat_length, map_length, seq_length. reflexivity.
    - intros i Hi. rewrite fold_set_nth_length, repeat_length in Hi.
      rewrite (collect_slots analyse) by (rewrite ?repeat_length; auto).
      assert (E : existsb (Nat.eqb i) (map fst arrivals) = true).
      { apply existsb_eqb_in. eapply Permutation_in; [symmetry; exact Hperm|]. apply in_seq. lia. }
      rewrite E. rewrite (nth_indep _ [] (analyse 0)) by (rewrite map_length, seq_length; lia).
      rewrite map_nth. rewrite seq_nth; auto.
  Qed.
End CollectorProofs.

Lemma insert_by_sorted_head {A} (key : A -> nat) x l :
  (forall y, In y l -> key x < key y) -> insert_by key x l = x :: l.
Proof.
  destruct l as [|y l]; cbn; auto. intros H. specialize (H y (or_introl eq_refl)).
  now rewrite (proj2 (Nat.leb_le _ _) (Nat.lt_le_incl _ _ H)).
Qed.

(* insertions of elements with different keys commute: by cases on how the two keys and the head compare *)
Lemma insert_by_comm {A} (key : A -> nat) x y l : key x <> key y ->
  insert_by key x (insert_by key y l) = insert_by key y (insert_by key x l).
Proof.
  intros N. induction l as [|z l IH]; cbn.
  all: repeat match goal with |- context [?a <=? ?b] => destruct (Nat.leb_spec a b); cbn end; try lia; try reflexivity.
  now rewrite IH.
Qed.

Theorem sort_by_order_free {A} (key : A -> nat) (l l' : list A) :
  Permutation l l' -> NoDup (map key l) -> sort_by key l = sort_by key l'.
Proof.
  induction 1 as [|x l l' P IH|x y l|l l' l'' P IH P' IH']; intros Hnd; cbn.
  - reflexivity.
  - f_equal. apply IH. now inversion Hnd.
  - apply insert_by_comm. inversion Hnd as [|? ? Hy _]; subst. intros E. apply Hy. now left.
  - rewrite IH by exact Hnd. apply IH'. eapply Permutation_NoDup; [apply Permutation_map; exact P | exact Hnd].
Qed.

(* C04 at the engine boundary: the order in which the driver hands over the facts and the order in which the
   annotation maps are iterated do not influence ANYTHING the engine produces (conflicts with explanations, the
   inferred map in insertion order, the exported fact) *)
Theorem engine_input_order_free exported fuel facts facts' annots annots' ts :
  Permutation facts facts' -> NoDup (map fst facts) ->
  Permutation annots annots' -> NoDup (map fst annots) ->
  engine_result exported fuel facts annots ts = engine_result exported fuel facts' annots' ts.
Proof.
  intros Pf Nf Pa Na. unfold engine_result, analyze_pkg, upstream_items, annot_items.
  rewrite (sort_by_order_free fst facts facts' Pf Nf), (sort_by_order_free fst annots annots' Pa Na). reflexivity.
Qed.
