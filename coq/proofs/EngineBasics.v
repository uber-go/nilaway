(* Basic facts about the ordered map, the step function and runs of the engine model. *)
From Coq Require Import List Bool PeanoNat Permutation.
From NM Require Import Engine EngineSpec.
From NP Require Import ListFacts.
Import ListNotations.

Lemma lookup_store {A} (m : list (site * A)) s s' v :
  lookup (store m s v) s' = if Nat.eqb s s' then Some v else lookup m s'.
Proof.
  induction m as [|[k x] m IH]; cbn; [reflexivity|].
  destruct (Nat.eqb_spec k s) as [->|N]; cbn; [now destruct (Nat.eqb s s')|]. rewrite IH.
  destruct (Nat.eqb_spec s s') as [<-|]; [|reflexivity]. now rewrite (proj2 (Nat.eqb_neq k s) N).
Qed.

Lemma In_store {A} (m : list (site * A)) s v k x : In (k, x) (store m s v) -> (k = s /\ x = v) \/ In (k, x) m.
Proof.
  induction m as [|[k' x'] m IH]; cbn.
  - intros [H|[]]; inversion H; auto.
  - destruct (Nat.eqb k' s) eqn:E; cbn.
    + intros [H|H]; [inversion H; subst; apply Nat.eqb_eq in E; auto | auto].
    + intros [H|H]; auto. destruct (IH H); auto.
Qed.

Lemma lookup_Some_In {A} (m : list (site * A)) s v : lookup m s = Some v -> In (s, v) m.
Proof.
  induction m as [|[k x] m IH]; cbn; [discriminate|].
  destruct (Nat.eqb k s) eqn:E; intros H.
  - apply Nat.eqb_eq in E; inversion H; subst; auto.
  - auto.
Qed.
Lemma lookup_In_fst {A} (m : list (site * A)) s v : lookup m s = Some v -> In s (map fst m).
Proof. intros H. apply lookup_Some_In in H. apply in_map_iff. exists (s, v). auto. Qed.

Lemma lookup_None_notin {A} (m : list (site * A)) s : lookup m s = None -> ~ In s (map fst m).
Proof.
  induction m as [|[k x] m IH]; cbn; auto.
  destruct (Nat.eqb k s) eqn:E; [discriminate|]. intros H [->|Hin]; [rewrite Nat.eqb_refl in E; discriminate|].
  now apply IH.
Qed.

Lemma In_lookup_not_None {A} (m : list (site * A)) s v : In (s, v) m -> lookup m s <> None.
Proof. intros H E. exact (lookup_None_notin m s E (in_map fst m (s, v) H)). Qed.

Lemma lookup_not_None_In {A} (m : list (site * A)) s : lookup m s <> None -> exists v, In (s, v) m.
Proof.
  destruct (lookup m s) eqn:E; [|tauto]. intros _. eexists. eapply lookup_Some_In; eauto.
Qed.

Lemma lookup_store_key {A} (l : list (site * A)) k v x : lookup l x <> None -> lookup (store l k v) x <> None.
Proof. rewrite lookup_store. destruct (Nat.eqb k x); auto. discriminate. Qed.

Lemma store_keys {A} (m : list (site * A)) s v :
  map fst (store m s v) = match lookup m s with Some _ => map fst m | None => map fst m ++ [s] end.
Proof.
  induction m as [|[k x] m IH]; cbn; auto.
  destruct (Nat.eqb k s) eqn:E; cbn.
  - apply Nat.eqb_eq in E; now subst.
  - rewrite IH. destruct (lookup m s); auto.
Qed.

Lemma NoDup_store {A} (m : list (site * A)) s v : NoDup (map fst m) -> NoDup (map fst (store m s v)).
Proof.
  intros H. rewrite store_keys. destruct (lookup m s) eqn:E; auto.
  apply NoDup_app_single; auto. now apply lookup_None_notin.
Qed.

Lemma In_lookup_nodup {A} (m : list (site * A)) s v : NoDup (map fst m) -> In (s, v) m -> lookup m s = Some v.
Proof.
  induction m as [|[k x] m IH]; cbn; [tauto|]. intros Hnd [H|H].
  - inversion H; subst. now rewrite Nat.eqb_refl.
  - inversion Hnd as [|? ? Hk Hnd']; subst. destruct (Nat.eqb k s) eqn:E.
    + apply Nat.eqb_eq in E; subst. exfalso. apply Hk. apply in_map_iff. exists (s, v). auto.
    + auto.
Qed.

Lemma insert_by_perm {A} (key : A -> nat) x l : Permutation (insert_by key x l) (x :: l).
Proof.
  induction l as [|y l IH]; cbn; auto.
  destruct (Nat.leb (key x) (key y)); auto.
  eapply perm_trans; [apply perm_skip; apply IH | apply perm_swap].
Qed.
Lemma sort_by_perm {A} (key : A -> nat) l : Permutation (sort_by key l) l.
Proof.
  induction l as [|x l IH]; cbn; auto.
  eapply perm_trans; [apply insert_by_perm | now apply perm_skip].
Qed.
Lemma In_sort_by {A} (key : A -> nat) l x : In x (sort_by key l) <-> In x l.
Proof. split; apply Permutation_in; [|symmetry]; apply sort_by_perm. Qed.

Definition detv (st : state) (s : site) : option bool :=
  match lookup (mp st) s with Some (Det e) => Some (eval_expl e) | _ => None end.

Definition dom (st : state) (s : site) : Prop := lookup (mp st) s <> None.

(* runs without fuel *)
Inductive Run : state -> list item -> state -> Prop :=
  | Run_nil st : Run st [] st
  | Run_cons st it rest st1 new st' :
      step st it = (st1, new) -> Run st1 (new ++ rest) st' -> Run st (it :: rest) st'.

Lemma run_nil fuel st : run fuel st [] = Some st.
Proof. now destruct fuel. Qed.

Lemma run_Run fuel : forall st work st', run fuel st work = Some st' -> Run st work st'.
Proof.
  induction fuel as [|f IH]; intros st work st' H; destruct work as [|it rest]; cbn in H.
  - inversion H; constructor.
  - discriminate.
  - inversion H; constructor.
  - destruct (step st it) as [st1 new] eqn:E. econstructor; eauto.
Qed.

Lemma Run_run st work st' : Run st work st' -> exists fuel, forall f, fuel <= f -> run f st work = Some st'.
Proof.
  induction 1 as [st | st it rest st1 new st' Hs HR [fuel IH]].
  - exists 0. intros f _. apply run_nil.
  - exists (S fuel). intros f Hf. destruct f as [|f]; [inversion Hf|]. cbn. rewrite Hs. apply IH. now apply le_S_n.
Qed.

Lemma run_fuel_mono fuel st work st' f : run fuel st work = Some st' -> fuel <= f -> run f st work = Some st'.
Proof.
  revert st work f. induction fuel as [|n IH]; intros st work f H Hle; destruct work as [|it rest]; cbn in H.
  - destruct f; cbn; auto.
  - discriminate.
  - destruct f; cbn; auto.
  - destruct f as [|f]; [inversion Hle|]. cbn. destruct (step st it) as [st1 new]. apply IH; auto. now apply le_S_n.
Qed.

Lemma Run_app st w1 w2 st'' : Run st (w1 ++ w2) st'' -> exists st', Run st w1 st' /\ Run st' w2 st''.
Proof.
  remember (w1 ++ w2) as w eqn:Ew. intros H. revert w1 Ew.
  induction H as [st | st it rest st1 new st' Hs HR IH]; intros w1 Ew.
  - destruct w1; [|discriminate]. cbn in Ew; subst. exists st; split; constructor.
  - destruct w1 as [|i1 w1]; cbn in Ew.
    + subst w2. exists st. split; [constructor|]. econstructor; eauto.
    + inversion Ew; subst i1 rest.
      destruct (IH (new ++ w1)) as [stm [H1 H2]]; [now rewrite app_assoc|].
      exists stm; split; auto. econstructor; eauto.
Qed.

Lemma Run_app_inv st w1 st' w2 st'' : Run st w1 st' -> Run st' w2 st'' -> Run st (w1 ++ w2) st''.
Proof.
  induction 1 as [st | st it rest st1 new st' Hs HR IH]; intros H2; cbn; auto.
  econstructor; eauto. rewrite app_assoc. auto.
Qed.

Lemma Run_invariant (P : state -> list item -> Prop) :
  (forall st it rest st1 new, P st (it :: rest) -> step st it = (st1, new) -> P st1 (new ++ rest)) ->
  forall st work st', Run st work st' -> P st work -> P st' [].
Proof.
  intros Hstep st work st' H. induction H; intros HP; auto.
  apply IHRun. eapply Hstep; eauto.
Qed.

(* the map as the engine reads it: an absent site behaves as Undet [] [] *)
Definition outs_l (m : list (site * ival)) (s : site) : list (site * tid) :=
  match lookup m s with Some (Undet _ o) => o | _ => [] end.
Definition ins_l (m : list (site * ival)) (s : site) : list (site * tid) :=
  match lookup m s with Some (Undet i _) => i | _ => [] end.
Definition det_l (m : list (site * ival)) (s : site) : option expl :=
  match lookup m s with Some (Det e) => Some e | _ => None end.

Lemma lookup_view m s :
  match lookup m s with
  | Some (Det e) => det_l m s = Some e /\ outs_l m s = [] /\ ins_l m s = []
  | Some (Undet i o) => det_l m s = None /\ outs_l m s = o /\ ins_l m s = i
  | None => det_l m s = None /\ outs_l m s = [] /\ ins_l m s = []
  end.
Proof. unfold det_l, outs_l, ins_l. destruct (lookup m s) as [[e|i o]|]; auto. Qed.

Lemma det_store_det m s e x : det_l (store m s (Det e)) x = if Nat.eqb s x then Some e else det_l m x.
Proof. unfold det_l. rewrite lookup_store. destruct (Nat.eqb s x); auto. Qed.
Lemma outs_store_det m s e x : outs_l (store m s (Det e)) x = if Nat.eqb s x then [] else outs_l m x.
Proof. unfold outs_l. rewrite lookup_store. destruct (Nat.eqb s x); auto. Qed.
Lemma ins_store_det m s e x : ins_l (store m s (Det e)) x = if Nat.eqb s x then [] else ins_l m x.
Proof. unfold ins_l. rewrite lookup_store. destruct (Nat.eqb s x); auto. Qed.

(* store_impl creates the two entries if absent, then adds the edge to each side unless it is determined *)
Definition ensure (m : list (site * ival)) (s : site) :=
  match lookup m s with None => store m s (Undet [] []) | Some _ => m end.
Definition amend (f : ival -> ival) (m : list (site * ival)) (s : site) :=
  match lookup m s with Some (Undet i o) => store m s (f (Undet i o)) | _ => m end.
Definition with_out (c : site) (t : tid) (v : ival) : ival :=
  match v with Undet i o => Undet i (store o c t) | Det _ => v end.
Definition with_in (p : site) (t : tid) (v : ival) : ival :=
  match v with Undet i o => Undet (store i p t) o | Det _ => v end.

Lemma store_impl_decomp m p c t :
  store_impl m p c t = amend (with_in p t) (amend (with_out c t) (ensure (ensure m p) c) p) c.
Proof. reflexivity. Qed.

Lemma lookup_ensure m s x :
  lookup (ensure m s) x = match lookup m x with None => if Nat.eqb s x then Some (Undet [] []) else None | v => v end.
Proof.
  unfold ensure. destruct (lookup m s) eqn:E.
  - destruct (lookup m x) eqn:Ex; auto. destruct (Nat.eqb_spec s x) as [->|]; congruence.
  - rewrite lookup_store. destruct (Nat.eqb_spec s x) as [->|]; [now rewrite E | now destruct (lookup m x)].
Qed.

Lemma lookup_amend f m s x : (forall e, f (Det e) = Det e) ->
  lookup (amend f m s) x = if Nat.eqb s x then option_map f (lookup m x) else lookup m x.
Proof.
  intros Hf. unfold amend. destruct (Nat.eqb_spec s x) as [->|N].
  - destruct (lookup m x) as [[e|i o]|] eqn:E; cbn; rewrite ?E, ?Hf; auto. now rewrite lookup_store, Nat.eqb_refl.
  - destruct (lookup m s) as [[e|i o]|]; auto. now rewrite lookup_store, (proj2 (Nat.eqb_neq s x) N).
Qed.

(* only the entries of p and c are touched; every other fact about store_impl is read off this equation *)
Lemma lookup_store_impl m p c t x :
  lookup (store_impl m p c t) x =
  if Nat.eqb p x || Nat.eqb c x then
    let v := match lookup m x with Some v => v | None => Undet [] [] end in
    let v := if Nat.eqb p x then with_out c t v else v in
    Some (if Nat.eqb c x then with_in p t v else v)
  else lookup m x.
Proof.
  rewrite store_impl_decomp, !lookup_amend, !lookup_ensure by reflexivity.
  destruct (lookup m x) as [[e|i o]|], (Nat.eqb p x), (Nat.eqb c x); reflexivity.
Qed.

Lemma store_impl_lookup_other m p c t s : s <> p -> s <> c -> lookup (store_impl m p c t) s = lookup m s.
Proof.
  intros Hp Hc. rewrite lookup_store_impl.
  now rewrite (proj2 (Nat.eqb_neq p s)), (proj2 (Nat.eqb_neq c s)) by auto.
Qed.

Lemma store_impl_det m p c t x : det_l (store_impl m p c t) x = det_l m x.
Proof.
  unfold det_l. rewrite lookup_store_impl.
  destruct (lookup m x) as [[e|i o]|], (Nat.eqb p x), (Nat.eqb c x); reflexivity.
Qed.

Lemma store_impl_dom m p c t x : lookup (store_impl m p c t) x <> None <-> (x = p \/ x = c \/ lookup m x <> None).
Proof.
  rewrite lookup_store_impl.
  destruct (Nat.eqb_spec p x) as [->|], (Nat.eqb_spec c x) as [->|]; cbn; split; auto; try discriminate; intuition congruence.
Qed.

Lemma store_impl_outs_eq m p c t x : det_l m p = None ->
  outs_l (store_impl m p c t) x = if Nat.eqb p x then store (outs_l m p) c t else outs_l m x.
Proof.
  unfold det_l, outs_l. rewrite lookup_store_impl. destruct (Nat.eqb_spec p x) as [->|]; cbn.
  - destruct (lookup m x) as [[e|i o]|], (Nat.eqb c x); try discriminate; reflexivity.
  - destruct (lookup m x) as [[e|i o]|], (Nat.eqb c x); reflexivity.
Qed.

Lemma store_impl_ins_eq m p c t x : det_l m c = None ->
  ins_l (store_impl m p c t) x = if Nat.eqb c x then store (ins_l m c) p t else ins_l m x.
Proof.
  unfold det_l, ins_l. rewrite lookup_store_impl. destruct (Nat.eqb_spec c x) as [->|]; rewrite ?orb_true_r; cbn.
  - destruct (lookup m x) as [[e|i o]|], (Nat.eqb p x); try discriminate; reflexivity.
  - rewrite orb_false_r. destruct (lookup m x) as [[e|i o]|], (Nat.eqb p x); reflexivity.
Qed.

Lemma store_impl_outs m p c t x : det_l m p = None ->
  forall a b, In (a, b) (outs_l (store_impl m p c t) x) -> In (a, b) (outs_l m x) \/ (x = p /\ a = c /\ b = t).
Proof.
  intros Hp a b. rewrite store_impl_outs_eq by auto. destruct (Nat.eqb_spec p x) as [->|]; auto.
  intros H. apply In_store in H. tauto.
Qed.

Lemma store_impl_ins m p c t x : det_l m c = None ->
  forall a b, In (a, b) (ins_l (store_impl m p c t) x) -> In (a, b) (ins_l m x) \/ (x = c /\ a = p /\ b = t).
Proof.
  intros Hc a b. rewrite store_impl_ins_eq by auto. destruct (Nat.eqb_spec c x) as [->|]; auto.
  intros H. apply In_store in H. tauto.
Qed.

Lemma NoDup_store_impl m p c t : NoDup (map fst m) -> NoDup (map fst (store_impl m p c t)).
Proof.
  assert (E : forall m s, NoDup (map fst m) -> NoDup (map fst (ensure m s))).
  { intros m0 s. unfold ensure. destruct (lookup m0 s); auto using NoDup_store. }
  assert (A : forall f m s, NoDup (map fst m) -> NoDup (map fst (amend f m s))).
  { intros f m0 s. unfold amend. destruct (lookup m0 s) as [[e|i o]|]; auto using NoDup_store. }
  intros H. rewrite store_impl_decomp. auto.
Qed.

Lemma In_controlled_by t l s : In t (controlled_by l s) <-> In t l /\ t_ctrl t = Some s.
Proof.
  unfold controlled_by, ctrl_is. rewrite filter_In.
  destruct (t_ctrl t) as [k|]; [rewrite Nat.eqb_eq|]; intuition congruence.
Qed.

Lemma In_dedup l : forall seen s, In s (dedup l seen) <-> In s l /\ ~ In s seen.
Proof.
  induction l as [|x l IH]; intros seen s; cbn; [tauto|].
  destruct (existsb (Nat.eqb x) seen) eqn:E.
  - apply existsb_eqb_in in E. rewrite IH. split; [tauto|]. intros [[<-|Hs] N]; tauto.
  - apply existsb_eqb_notin in E. cbn. rewrite IH. cbn.
    destruct (Nat.eq_dec x s) as [->|Ne]; tauto.
Qed.

Lemma In_ctrl_sites k ts : In k (ctrl_sites ts) <-> exists t, In t ts /\ t_ctrl t = Some k.
Proof.
  unfold ctrl_sites. rewrite in_flat_map. split; intros [t [Ht Hk]]; exists t; split; auto.
  - destruct (t_ctrl t); [destruct Hk as [->|[]]; auto | destruct Hk].
  - rewrite Hk. now left.
Qed.

Lemma In_activate it st s b :
  In it (activate st s b) <-> b = true /\ exists t, it = ITrig t /\ In t (ctl st) /\ t_ctrl t = Some s.
Proof.
  unfold activate. destruct b; [rewrite in_map_iff; setoid_rewrite In_controlled_by|]; split.
  - intros [t [<- H]]. eauto.
  - intros [_ [t [-> H]]]. eauto.
  - intros [].
  - intros [H _]. discriminate.
Qed.

(* the items a newly determined site sends along its stored edges *)
Definition propagate (e : expl) (outs ins : list (site * tid)) : list item :=
  if eval_expl e then map (fun ot => ISite (fst ot) (EDeep (snd ot) e)) outs
  else map (fun it => ISite (fst it) (EDeep (snd it) e)) ins.

Lemma In_propagate it e outs ins :
  In it (propagate e outs ins) <->
  exists x t, it = ISite x (EDeep t e) /\ In (x, t) (if eval_expl e then outs else ins).
Proof.
  unfold propagate. destruct (eval_expl e); rewrite in_map_iff; split.
  1,3: intros [[x t] [<- H]]; eauto.
  all: intros [x [t [-> H]]]; exists (x, t); auto.
Qed.

(* the call a trigger makes for one of its atoms *)
Definition item_of_atom (i : tid) (a : atom) : list item :=
  match a with
  | ASrc c => [ISite c (EShallow true i)]
  | ASnk p => [ISite p (EShallow false i)]
  | AEdge p c t => [IImpl p c t]
  | ADirect _ => []
  end.

(* step st it = (st1, new), by cases; the site cases read the map through det_l, outs_l and ins_l, so that an absent
   site and an undetermined one are the same case *)
Inductive Step (st : state) : item -> state -> list item -> Prop :=
  | S_same s e e' : det_l (mp st) s = Some e' -> eval_expl e' = eval_expl e -> Step st (ISite s e) st []
  | S_conflict s e e' : det_l (mp st) s = Some e' -> eval_expl e' <> eval_expl e ->
      Step st (ISite s e) (add_conflict st (if eval_expl e' then COver e' e else COver e e')) (activate st s (eval_expl e))
  | S_det s e : det_l (mp st) s = None ->
      Step st (ISite s e) (set_mp st (store (mp st) s (Det e)))
           (activate st s (eval_expl e) ++ propagate e (outs_l (mp st) s) (ins_l (mp st) s))
  | S_direct t : In (ADirect (t_id t)) (atoms_of_trigger t) ->
      Step st (ITrig t) (add_conflict st (CSingle (t_id t))) []
  | S_trig t : (forall i, ~ In (ADirect i) (atoms_of_trigger t)) ->
      Step st (ITrig t) st (flat_map (item_of_atom (t_id t)) (atoms_of_trigger t))
  | S_impl_t p c t e : det_l (mp st) p = Some e -> eval_expl e = true -> Step st (IImpl p c t) st [ISite c (EDeep t e)]
  | S_impl_f p c t e : det_l (mp st) p = Some e -> eval_expl e = false -> Step st (IImpl p c t) st []
  | S_impl_ct p c t e : det_l (mp st) p = None -> det_l (mp st) c = Some e -> eval_expl e = true ->
      Step st (IImpl p c t) st []
  | S_impl_cf p c t e : det_l (mp st) p = None -> det_l (mp st) c = Some e -> eval_expl e = false ->
      Step st (IImpl p c t) st [ISite p (EDeep t e)]
  | S_impl_store p c t : det_l (mp st) p = None -> det_l (mp st) c = None ->
      Step st (IImpl p c t) (set_mp st (store_impl (mp st) p c t)) [].

Lemma step_Step st it st1 new : step st it = (st1, new) -> Step st it st1 new.
Proof.
  destruct it as [s e | t | p c t]; cbn.
  - pose proof (lookup_view (mp st) s) as V. pose proof (S_det st s e) as D.
    destruct (lookup (mp st) s) as [[e'|i o]|]; destruct V as [Vd [Vo Vi]].
    + destruct (Bool.eqb _ _) eqn:E; intros H; inversion H; subst.
      * apply S_same with e'; [exact Vd | now apply eqb_prop].
      * apply S_conflict; [exact Vd | now apply eqb_false_iff].
    + rewrite Vo, Vi in D. intros H; inversion H; subst. now apply D.
    + rewrite Vo, Vi in D. intros H; inversion H; subst.
      replace (activate st s (eval_expl e)) with (activate st s (eval_expl e) ++ propagate e [] []); [now apply D|].
      unfold propagate. destruct (eval_expl e); apply app_nil_r.
  - pose proof (S_direct st t) as D. pose proof (S_trig st t) as T. unfold atoms_of_trigger in D, T. revert D T.
    destruct (t_prod t), (t_cons t); cbn; intros D T H; inversion H; subst;
      first [apply D; now left | apply T; intros i [Hi|[]]; discriminate | apply T; intros i []].
  - pose proof (lookup_view (mp st) p) as Vp. pose proof (lookup_view (mp st) c) as Vc.
    destruct (lookup (mp st) p) as [[ep|ip op]|]; destruct Vp as [Vp _].
    1: destruct (eval_expl ep) eqn:E; intros H; inversion H; subst; [eapply S_impl_t | eapply S_impl_f]; eauto.
    all: destruct (lookup (mp st) c) as [[ec|ic oc]|]; destruct Vc as [Vc _]; [destruct (eval_expl ec) eqn:E| |];
      intros H; inversion H; subst; eauto using Step.
Qed.

Lemma step_ctl st it st1 new : step st it = (st1, new) -> ctl st1 = ctl st.
Proof. intros H. destruct (step_Step _ _ _ _ H); reflexivity. Qed.

Lemma Run_ctl st work st' : Run st work st' -> ctl st' = ctl st.
Proof. induction 1; auto. rewrite IHRun. eapply step_ctl; eauto. Qed.

Lemma step_conflicts st it st1 new : step st it = (st1, new) -> exists l, conflicts st1 = conflicts st ++ l.
Proof.
  intros H. destruct (step_Step _ _ _ _ H); cbn; try (exists []; now rewrite app_nil_r); eexists; reflexivity.
Qed.

Lemma step_conflicts_nil st it st1 new : step st it = (st1, new) -> conflicts st1 = [] -> conflicts st = [].
Proof.
  intros H E. destruct (step_conflicts _ _ _ _ H) as [l Hl]. rewrite Hl in E. now apply app_eq_nil in E.
Qed.

Lemma Run_conflicts_nil st work st' : Run st work st' -> conflicts st' = [] -> conflicts st = [].
Proof. induction 1; auto. intros E. eapply step_conflicts_nil; eauto. Qed.

Lemma step_nodup st it st1 new : step st it = (st1, new) -> NoDup (map fst (mp st)) -> NoDup (map fst (mp st1)).
Proof. intros H Hn. destruct (step_Step _ _ _ _ H); cbn; auto using NoDup_store, NoDup_store_impl. Qed.

Lemma Run_nodup st work st' : Run st work st' -> NoDup (map fst (mp st)) -> NoDup (map fst (mp st')).
Proof. induction 1; auto. intros. apply IHRun. eapply step_nodup; eauto. Qed.
