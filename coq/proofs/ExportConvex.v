(* chooseSitesToExport on the unexported sites: an undetermined, unexported site is chosen iff it lies on a path of
   such sites from an exported site to an exported site.
   The two depth-first walks (markReachableFromExported / markReachesExported) share one marks structure; the proof
   separates them again: fvb (forward-visited) and bvb (backward-visited) are read off the three lists, each walk is a
   depth-first search on its own set and leaves the other alone, a site is in toExport iff it is in both.  Only the
   forward walk is analysed: the backward walk is the forward walk of the transposed graph on the swapped marks. *)
From Coq Require Import List Bool PeanoNat Lia.
From NM Require Import Engine.
From NP Require Import ListFacts EngineBasics ExportProofs.
Import ListNotations.

Section Inner.
  Variable exported : site -> bool.
  Variable m : list (site * ival).

  Definition inner (s : site) : bool := is_undet m s && negb (exported s).
End Inner.

Section Forward.
  Variable exported : site -> bool.
  Variable m : list (site * ival).
  Local Notation inner := (inner exported m).

  Definition fvb (mk : marks) (x : site) : bool := mem x (rfe mk) || (mem x (toExp mk) && mem x (re mk)).
  Definition bvb (mk : marks) (x : site) : bool := mem x (re mk) || (mem x (toExp mk) && mem x (rfe mk)).

  (* the shape the three lists keep: an unexported chosen site was visited by one of the walks first; no site is
     marked by both walks without being chosen *)
  Definition shape (mk : marks) : Prop :=
    (forall x, inner x = true -> mem x (toExp mk) = true -> mem x (rfe mk) = true \/ mem x (re mk) = true) /\
    (forall x, mem x (rfe mk) = true -> mem x (re mk) = true -> False).

  Lemma inner_iff s : inner s = true <-> exported s = false /\ exists i o, lookup m s = Some (Undet i o).
  Proof.
    unfold inner, is_undet. rewrite andb_true_iff, negb_true_iff, and_comm. apply and_iff_compat_l.
    destruct (lookup m s) as [[e|i o]|]; [|split; eauto|]; (split; [discriminate | intros [i [o H]]; discriminate]).
  Qed.

  Lemma inner_in_keys s : inner s = true -> In s (map fst m).
  Proof. intros H. apply inner_iff in H. destruct H as [_ [i [o E]]]. exact (lookup_In_fst _ _ _ E). Qed.

  Lemma shape_T mk x : shape mk -> inner x = true -> mem x (toExp mk) = fvb mk x && bvb mk x.
  Proof.
    intros [H1 H2] Hi. unfold fvb, bvb.
    destruct (mem x (toExp mk)) eqn:Et, (mem x (rfe mk)) eqn:Ef, (mem x (re mk)) eqn:Eb; cbn; auto;
      try (exfalso; apply (H2 x Ef Eb)); try (destruct (H1 x Hi Et); congruence).
  Qed.

  Definition visitF (mk : marks) (s : site) : marks :=
    if mem s (re mk) then {| toExp := s :: toExp mk; rfe := rfe mk; re := re mk |}
    else {| toExp := toExp mk; rfe := s :: rfe mk; re := re mk |}.

  Lemma mark_rfe_unfold f mk s : mark_rfe exported (S f) m mk s =
    if inner s && negb (mem s (toExp mk)) && negb (mem s (rfe mk))
    then fold_left (mark_rfe exported f m) (outs_of m s) (visitF mk s) else mk.
  Proof. reflexivity. Qed.

  Lemma visitF_fv mk s x : fvb (visitF mk s) x = Nat.eqb x s || fvb mk x.
  Proof.
    unfold visitF, fvb. destruct (mem s (re mk)) eqn:Er; cbn [toExp rfe re]; rewrite ?mem_cons.
    - destruct (Nat.eqb_spec x s) as [->|_]; cbn; auto. rewrite Er. cbn. now rewrite orb_true_r.
    - destruct (Nat.eqb x s); cbn; auto.
  Qed.

  Lemma visitF_bv mk s x : mem s (toExp mk) = false -> bvb (visitF mk s) x = bvb mk x.
  Proof.
    intros Ht. unfold visitF, bvb. destruct (mem s (re mk)) eqn:Er; cbn [toExp rfe re]; rewrite ?mem_cons.
    - destruct (Nat.eqb_spec x s) as [->|_]; cbn; auto. rewrite Er. reflexivity.
    - destruct (Nat.eqb_spec x s) as [->|_]; cbn; auto. rewrite Er, Ht. reflexivity.
  Qed.

  Lemma visitF_shape mk s : shape mk -> shape (visitF mk s).
  Proof.
    intros [H1 H2]. unfold visitF. destruct (mem s (re mk)) eqn:Er; split; cbn [toExp rfe re]; intros x.
    - intros Hx. rewrite mem_cons. destruct (Nat.eqb_spec x s) as [->|_]; cbn; auto.
    - apply H2.
    - intros Hx Hm. rewrite mem_cons. destruct (H1 x Hx Hm); auto. left. rewrite H. apply orb_true_r.
    - rewrite mem_cons. destruct (Nat.eqb_spec x s) as [->|_]; cbn; [|apply H2]. intros _ Hr. congruence.
  Qed.

  Lemma stopF mk s : shape mk -> inner s = true -> (negb (mem s (toExp mk)) && negb (mem s (rfe mk))) = negb (fvb mk s).
  Proof.
    intros [H1 H2] Hi. unfold fvb. destruct (mem s (toExp mk)) eqn:Et, (mem s (rfe mk)) eqn:Ef; cbn; auto.
    destruct (H1 s Hi Et) as [H|H]; [congruence|]. now rewrite H.
  Qed.

  Lemma mark_rfe_step f mk s : shape mk -> mark_rfe exported (S f) m mk s =
    if inner s && negb (fvb mk s) then fold_left (mark_rfe exported f m) (outs_of m s) (visitF mk s) else mk.
  Proof.
    intros Hsh. rewrite mark_rfe_unfold. destruct (inner s) eqn:Hi; [|reflexivity].
    now rewrite <- andb_assoc, (stopF mk s Hsh Hi).
  Qed.

  Definition closedF (mk : marks) (x : site) : Prop := forall y, In y (outs_of m x) -> inner y = true -> fvb mk y = true.

  Definition unvF (mk : marks) : nat := length (filter (fun x => inner x && negb (fvb mk x)) (map fst m)).

  Lemma unvF_mono a b : (forall x, fvb a x = true -> fvb b x = true) -> unvF b <= unvF a.
  Proof.
    intros H. unfold unvF. apply filter_length_le. intros x _ Hx. apply andb_true_iff in Hx. destruct Hx as [Hi Hn].
    rewrite Hi. cbn. destruct (fvb a x) eqn:E; auto. rewrite (H x E) in Hn. discriminate.
  Qed.

  Lemma unvF_visit mk s : inner s = true -> fvb mk s = false -> unvF (visitF mk s) < unvF mk.
  Proof.
    intros Hi Hs. unfold unvF. apply filter_length_lt with (y := s).
    - intros x _ Hx. apply andb_true_iff in Hx. destruct Hx as [Hix Hn]. rewrite Hix. cbn.
      rewrite visitF_fv in Hn. destruct (fvb mk x); auto. rewrite orb_true_r in Hn. discriminate.
    - now apply inner_in_keys.
    - rewrite visitF_fv, Nat.eqb_refl. cbn. now rewrite andb_false_r.
    - rewrite Hi, Hs. reflexivity.
  Qed.

  Lemma unvF_le mk : unvF mk <= length m.
  Proof.
    unfold unvF. rewrite <- (map_length fst m). induction (map fst m) as [|a l IH]; cbn; auto.
    destruct (_ && _); cbn; lia.
  Qed.

  Variable P : site -> Prop.
  Hypothesis Pstep : forall x y, P x -> In y (outs_of m x) -> inner y = true -> P y.

  Record postF (mk mk' : marks) : Prop := {
    pf_mono : forall x, fvb mk x = true -> fvb mk' x = true;
    pf_bv : forall x, bvb mk' x = bvb mk x;
    pf_shape : shape mk';
    pf_new : forall x, fvb mk' x = true -> fvb mk x = false -> closedF mk' x /\ inner x = true /\ P x
  }.

  Lemma postF_refl mk : shape mk -> postF mk mk.
  Proof. intros H. split; auto. intros x H1 H2. congruence. Qed.

  Lemma postF_trans a b c : postF a b -> postF b c -> postF a c.
  Proof.
    intros [m1 b1 s1 n1] [m2 b2 s2 n2]. split; auto.
    - intros x. rewrite b2. apply b1.
    - intros x Hc Ha. destruct (fvb b x) eqn:Eb; [|now apply n2].
      destruct (n1 x Eb Ha) as [Hcl Hip]. split; [|exact Hip]. intros y Hy Hiy. exact (m2 y (Hcl y Hy Hiy)).
  Qed.

  Definition walked (f : nat) (mk : marks) (l : list site) : Prop :=
    shape mk -> unvF mk < f -> (forall y, In y l -> inner y = true -> P y) ->
    let mk' := fold_left (mark_rfe exported f m) l mk in
    postF mk mk' /\ (forall y, In y l -> inner y = true -> fvb mk' y = true).

  Lemma walked_fold f : (forall mk s, walked f mk [s]) -> forall l mk, walked f mk l.
  Proof.
    intros W. induction l as [|y l IH]; intros mk Hsh Hf Hl; cbn [fold_left]; cbn zeta.
    - split; [now apply postF_refl | intros y []].
    - assert (Hy : forall z, In z [y] -> inner z = true -> P z) by (intros z [<-|[]]; apply Hl; now left).
      destruct (W mk y Hsh Hf Hy) as [P1 Q1]. cbn [fold_left] in P1, Q1.
      set (mk1 := mark_rfe exported f m mk y) in *.
      assert (Hf1 : unvF mk1 < f) by (pose proof (unvF_mono _ _ (pf_mono _ _ P1)); lia).
      destruct (IH mk1 (pf_shape _ _ P1) Hf1 (fun z Hz => Hl z (or_intror Hz))) as [P2 Q2].
      split; [eapply postF_trans; eauto|].
      intros z [<-|Hz] Hiz; [apply (pf_mono _ _ P2), Q1; [now left | exact Hiz] | now apply Q2].
  Qed.

  Lemma postF_visit mk s mk' : shape mk -> inner s = true -> fvb mk s = false -> P s ->
    postF (visitF mk s) mk' -> closedF mk' s -> postF mk mk' /\ fvb mk' s = true.
  Proof.
    intros Hsh Hi Efv Hs Q V.
    assert (Ht : mem s (toExp mk) = false).
    { pose proof (stopF mk s Hsh Hi) as Hg. rewrite Efv in Hg. apply andb_true_iff in Hg. now apply negb_true_iff. }
    split; [split|].
    - intros x Hx. apply (pf_mono _ _ Q). rewrite visitF_fv, Hx. apply orb_true_r.
    - intros x. rewrite (pf_bv _ _ Q). now apply visitF_bv.
    - apply (pf_shape _ _ Q).
    - intros x Hx Hnx. destruct (fvb (visitF mk s) x) eqn:E1; [|now apply (pf_new _ _ Q)].
      rewrite visitF_fv, Hnx, orb_false_r in E1. apply Nat.eqb_eq in E1. subst x. auto.
    - apply (pf_mono _ _ Q). rewrite visitF_fv, Nat.eqb_refl. reflexivity.
  Qed.

  Lemma mark_rfe_post : forall f l mk, walked f mk l.
  Proof.
    induction f as [|f IH]; apply walked_fold; intros mk s Hsh Hfuel Hs; [lia|].
    cbn [fold_left]. cbn zeta. rewrite (mark_rfe_step f mk s Hsh).
    destruct (inner s && negb (fvb mk s)) eqn:Eg.
    - apply andb_true_iff in Eg. destruct Eg as [Hi Efv]. apply negb_true_iff in Efv.
      assert (Ps : P s) by (apply Hs; [now left | exact Hi]).
      (* the visit lowers unvF, so the fuel left suffices for the rest *)
      pose proof (unvF_visit mk s Hi Efv) as Hu.
      destruct (IH (outs_of m s) (visitF mk s)) as [Q V]; [now apply visitF_shape | lia | intros y Hy; now apply (Pstep s) |].
      destruct (postF_visit mk s _ Hsh Hi Efv Ps Q V) as [Q' V'].
      split; [exact Q' | intros y [<-|[]] _; exact V'].
    - split; [now apply postF_refl | intros y [<-|[]] Hi]. rewrite Hi in Eg. now apply negb_false_iff in Eg.
  Qed.
End Forward.

Definition tr_val (v : ival) : ival := match v with Undet i o => Undet o i | d => d end.
Definition tr (m : list (site * ival)) : list (site * ival) := map (fun kv => (fst kv, tr_val (snd kv))) m.
Definition sw (mk : marks) : marks := {| toExp := toExp mk; rfe := re mk; re := rfe mk |}.

Lemma lookup_tr m s : lookup (tr m) s = option_map tr_val (lookup m s).
Proof. induction m as [|[k v] m IH]; cbn; auto. destruct (Nat.eqb k s); auto. Qed.

Lemma is_undet_tr m s : is_undet (tr m) s = is_undet m s.
Proof. unfold is_undet. rewrite lookup_tr. destruct (lookup m s) as [[e|i o]|]; reflexivity. Qed.
Lemma outs_tr m s : outs_of (tr m) s = ins_of m s.
Proof. unfold outs_of, ins_of. rewrite lookup_tr. destruct (lookup m s) as [[e|i o]|]; reflexivity. Qed.
Lemma ins_tr m s : ins_of (tr m) s = outs_of m s.
Proof. unfold outs_of, ins_of. rewrite lookup_tr. destruct (lookup m s) as [[e|i o]|]; reflexivity. Qed.
Lemma keys_tr m : map fst (tr m) = map fst m.
Proof. unfold tr. rewrite map_map. reflexivity. Qed.
Lemma length_tr m : length (tr m) = length m.
Proof. apply map_length. Qed.
Lemma tr_tr m : tr (tr m) = m.
Proof. unfold tr. rewrite map_map. rewrite <- (map_id m) at 2. apply map_ext. intros [k [e|i o]]; reflexivity. Qed.
Lemma sw_sw mk : sw (sw mk) = mk.
Proof. destruct mk; reflexivity. Qed.

Lemma mark_re_tr exported m : forall f mk s, mark_re exported f m mk s = sw (mark_rfe exported f (tr m) (sw mk) s).
Proof.
  induction f as [|f IH]; intros mk s; cbn [mark_re mark_rfe]; [now rewrite sw_sw|].
  rewrite is_undet_tr, outs_tr. cbn [toExp rfe re sw].
  destruct (is_undet m s && negb (exported s) && negb (mem s (toExp mk)) && negb (mem s (re mk))); [|now rewrite sw_sw].
  rewrite (fold_left_conj sw _ _ IH sw_sw). do 2 f_equal. destruct (mem s (rfe mk)); reflexivity.
Qed.

Lemma inner_tr exported m s : inner exported (tr m) s = inner exported m s.
Proof. unfold inner. now rewrite is_undet_tr. Qed.

Lemma shape_sw exported m mk : shape exported m mk -> shape exported (tr m) (sw mk).
Proof.
  intros [H1 H2]. split; cbn [sw toExp rfe re].
  - intros x Hx Ht. rewrite inner_tr in Hx. destruct (H1 x Hx Ht); auto.
  - intros x Ha Hb. eapply H2; eauto.
Qed.

Section Half.
  Variable exported : site -> bool.
  Variable m : list (site * ival).
  Notation inn := (inner exported m).

  Definition root (r : site) : Prop := In r (map fst m) /\ exported r = true.
  Inductive FR : site -> Prop :=
    | FR_root r s : root r -> In s (outs_of m r) -> inn s = true -> FR s
    | FR_step x s : FR x -> In s (outs_of m x) -> inn s = true -> FR s.
  Inductive BR : site -> Prop :=
    | BR_root r s : root r -> In s (ins_of m r) -> inn s = true -> BR s
    | BR_step x s : BR x -> In s (ins_of m x) -> inn s = true -> BR s.

  (* the forward half, `done` being the keys already processed: the forward-visited sites are the inner sites that
     walks from the exported keys processed so far reach, and no such walk is left unfinished *)
  Record Half (mk : marks) (done : list site) : Prop := {
    h_shape : shape exported m mk;
    h_sound : forall x, fvb mk x = true -> inn x = true /\ FR x;
    h_closed : forall x, fvb mk x = true -> closedF exported m mk x;
    h_root : forall r y, In r done -> exported r = true -> In y (outs_of m r) -> inn y = true -> fvb mk y = true
  }.

  Lemma Half_init : Half {| toExp := []; rfe := []; re := [] |} [].
  Proof. split; [split | | | intros r y []]; intros x; cbn; discriminate. Qed.

  Lemma Half_frame mk mk' done : shape exported m mk' -> (forall x, fvb mk' x = fvb mk x) -> Half mk done -> Half mk' done.
  Proof.
    intros S E [_ s c r]. split; auto.
    - intros x. rewrite E. apply s.
    - intros x Hx y Hy Hi. rewrite E in *. eapply c; eauto.
    - intros r0 y. rewrite E. apply r.
  Qed.

  Lemma Half_done mk done r : Half mk done ->
    (exported r = true -> forall y, In y (outs_of m r) -> inn y = true -> fvb mk y = true) -> Half mk (r :: done).
  Proof. intros [sh s c rt] H. split; auto. intros r0 y [<-|Hr]; eauto. Qed.

  Lemma Half_walks f l mk done : length m < f -> Half mk done -> (forall y, In y l -> inn y = true -> FR y) ->
    let mk' := fold_left (mark_rfe exported f m) l mk in
    Half mk' done /\ (forall x, bvb mk' x = bvb mk x) /\ (forall y, In y l -> inn y = true -> fvb mk' y = true).
  Proof.
    intros Hf [sh s c rt] Hl.
    destruct (mark_rfe_post exported m FR FR_step f l mk sh) as [Q V]; [pose proof (unvF_le exported m mk); lia | exact Hl |].
    cbn zeta in *. set (mk' := fold_left _ l mk) in *. split; [split|split; [apply (pf_bv _ _ _ _ _ Q) | exact V]].
    - apply (pf_shape _ _ _ _ _ Q).
    - intros x Hx. destruct (fvb mk x) eqn:E; [auto | now apply (pf_new _ _ _ _ _ Q)].
    - intros x Hx. destruct (fvb mk x) eqn:E; [|now apply (pf_new _ _ _ _ _ Q)].
      intros y Hy Hi. apply (pf_mono _ _ _ _ _ Q). eapply c; eauto.
    - intros r y Hr He Hy Hi. apply (pf_mono _ _ _ _ _ Q). eauto.
  Qed.

  Definition add_root (mk : marks) (s : site) : marks := {| toExp := s :: toExp mk; rfe := rfe mk; re := re mk |}.

  Lemma Half_add_root mk done s : Half mk done -> (forall x, bvb mk x = true -> inn x = true) -> exported s = true ->
    Half (add_root mk s) done.
  Proof.
    intros h B He. assert (Hn : inn s = false) by (unfold inner; rewrite He; apply andb_false_r).
    assert (Hb : mem s (re mk) = false).
    { destruct (mem s (re mk)) eqn:E; auto. rewrite (B s) in Hn; [discriminate | unfold bvb; now rewrite E]. }
    apply (Half_frame mk); auto.
    - destruct (h_shape _ _ h) as [H1 H2]. split; cbn [add_root toExp rfe re]; auto.
      intros x Hi Ht. rewrite mem_cons in Ht. destruct (Nat.eqb_spec x s) as [->|_]; [congruence | auto].
    - intros x. unfold fvb. cbn [add_root toExp rfe re]. rewrite mem_cons. destruct (Nat.eqb_spec x s) as [->|_]; auto.
      rewrite Hb. now rewrite !andb_false_r.
  Qed.

  Lemma Half_iff mk done : Half mk done -> (forall r, root r -> In r done) ->
    forall x, fvb mk x = true <-> FR x.
  Proof.
    intros h Hd x. split; [apply (h_sound _ _ h)|].
    induction 1 as [r y [Hr He] Hy Hi | x y _ IH Hy Hi]; [eapply (h_root _ _ h) | eapply (h_closed _ _ h)]; eauto.
    apply Hd. now split.
  Qed.
End Half.

Lemma root_tr exported m r : root exported (tr m) r <-> root exported m r.
Proof. unfold root. now rewrite keys_tr. Qed.

Lemma BR_tr exported m s : BR exported m s <-> FR exported (tr m) s.
Proof.
  assert (H : forall m s, BR exported m s -> FR exported (tr m) s).
  { clear. intros m s. induction 1 as [r s Hr Hs Hi | x s _ IH Hs Hi]; rewrite <- outs_tr in Hs; rewrite <- inner_tr in Hi;
      [apply root_tr in Hr; eapply FR_root | eapply FR_step]; eauto. }
  split; [apply H|]. rewrite <- (tr_tr m) at 2. generalize (tr m). clear m.
  intros m. induction 1 as [r s Hr Hs Hi | x s _ IH Hs Hi]; rewrite <- ins_tr in Hs; rewrite <- inner_tr in Hi;
    [apply root_tr in Hr; eapply BR_root | eapply BR_step]; eauto.
Qed.

Section Main.
  Variable exported : site -> bool.

  Definition G (m : list (site * ival)) (mk : marks) (done : list site) : Prop :=
    Half exported m mk done /\ Half exported (tr m) (sw mk) done.

  Lemma G_sw m mk done : G m mk done -> G (tr m) (sw mk) done.
  Proof. intros [A B]. split; [exact B | now rewrite tr_tr, sw_sw]. Qed.

  Lemma G_add_root m mk done s : G m mk done -> exported s = true -> G m (add_root mk s) done.
  Proof.
    intros [A B] He. split; [|change (sw (add_root mk s)) with (add_root (sw mk) s)]; apply Half_add_root; auto.
    - intros x Hx. rewrite <- inner_tr. now apply (h_sound _ _ _ _ B).
    - intros x Hx. rewrite inner_tr. now apply (h_sound _ _ _ _ A).
  Qed.

  Lemma G_walks m f l mk done : length m < f -> G m mk done -> (forall y, In y l -> inner exported m y = true -> FR exported m y) ->
    let mk' := fold_left (mark_rfe exported f m) l mk in
    G m mk' done /\ (forall x, bvb mk' x = bvb mk x) /\ (forall y, In y l -> inner exported m y = true -> fvb mk' y = true).
  Proof.
    intros Hf [A B] Hl. destruct (Half_walks exported m f l mk done Hf A Hl) as [A' [E V]]. cbn zeta in *.
    split; [split|]; auto. apply (Half_frame _ _ (sw mk)); auto. apply shape_sw, (h_shape _ _ _ _ A').
  Qed.

  Lemma G_walks_back m f l mk done : length m < f -> G m mk done -> (forall y, In y l -> inner exported m y = true -> BR exported m y) ->
    let mk' := fold_left (mark_re exported f m) l mk in
    G m mk' done /\ (forall x, fvb mk' x = fvb mk x) /\ (forall y, In y l -> inner exported m y = true -> bvb mk' y = true).
  Proof.
    intros Hf g Hl. cbn zeta. rewrite (fold_left_conj sw _ _ (mark_re_tr exported m f) sw_sw).
    destruct (G_walks (tr m) f l (sw mk) done) as [g' [E V]]; [now rewrite length_tr | now apply G_sw | |].
    { intros y Hy Hi. rewrite inner_tr in Hi. apply BR_tr. now apply Hl. }
    cbn zeta in g', E, V. apply G_sw in g'. rewrite tr_tr in g'.
    split; [exact g' | split; [exact E|]]. intros y Hy Hi. apply V; [exact Hy | now rewrite inner_tr].
  Qed.

  Lemma G_done m mk done r : G m mk done ->
    (exported r = true -> forall y, In y (outs_of m r) -> inner exported m y = true -> fvb mk y = true) ->
    (exported r = true -> forall y, In y (ins_of m r) -> inner exported m y = true -> bvb mk y = true) ->
    G m mk (r :: done).
  Proof.
    intros [A B] Hf Hb. split; apply Half_done; auto. rewrite outs_tr. intros He y Hy. rewrite inner_tr. now apply Hb.
  Qed.

  Lemma choose_step_G m mk done kv : G m mk done -> In (fst kv) (map fst m) -> G m (choose_step exported m mk kv) (fst kv :: done).
  Proof.
    intros g Hk. unfold choose_step. set (s := fst kv) in *.
    destruct (exported s) eqn:He; [|apply G_done; auto; congruence].
    assert (Hr : root exported m s) by now split.
    destruct (G_walks_back m (S (length m)) (ins_of m s) (add_root mk s) done (Nat.lt_succ_diag_r _) (G_add_root _ _ _ s g He))
      as [g1 [_ V1]]; [intros y Hy Hi; now apply BR_root with s|].
    cbn zeta in g1, V1. fold (add_root mk s). set (mk1 := fold_left _ (ins_of m s) _) in *.
    destruct (G_walks m (S (length m)) (outs_of m s) mk1 done (Nat.lt_succ_diag_r _) g1) as [g2 [E2 V2]];
      [intros y Hy Hi; now apply FR_root with s|].
    apply G_done; auto. intros _ y Hy Hi. rewrite E2. now apply V1.
  Qed.

  Lemma fold_G m : forall l mk done, G m mk done -> (forall kv, In kv l -> In (fst kv) (map fst m)) ->
    G m (fold_left (choose_step exported m) l mk) (rev (map fst l) ++ done).
  Proof.
    induction l as [|kv l IH]; intros mk done g Hl; cbn [fold_left map rev]; auto.
    rewrite <- app_assoc. cbn [app]. apply IH.
    - apply choose_step_G; auto. apply Hl. left. reflexivity.
    - intros kv' H. apply Hl. right. exact H.
  Qed.

  Theorem choose_convex m s : inner exported m s = true ->
    (In s (choose_sites_to_export exported m) <-> FR exported m s /\ BR exported m s).
  Proof.
    intros Hi. unfold choose_sites_to_export. rewrite choose_marks_eq.
    destruct (fold_G m m _ [] (conj (Half_init exported m) (Half_init exported (tr m)))) as [A B];
      [intros kv H; now apply in_map|]. rewrite app_nil_r in A, B.
    set (mk := fold_left (choose_step exported m) m _) in *.
    rewrite <- mem_In, (shape_T _ _ mk s (h_shape _ _ _ _ A) Hi), andb_true_iff, BR_tr. change (bvb mk s) with (fvb (sw mk) s).
    rewrite (Half_iff _ _ _ _ A), (Half_iff _ _ _ _ B); [reflexivity | |]; intros r [Hr _]; rewrite <- in_rev; auto.
    now rewrite keys_tr in Hr.
  Qed.
End Main.
