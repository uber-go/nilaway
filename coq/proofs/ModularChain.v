(* Modular analysis of a chain of packages p1, ..., pn, each analysed with the facts its predecessors published and
   every one but the last conflict-free, equals the analysis of the whole program: by induction over the chain, the
   one-step theorem (ModularComplete.modular_equals_whole) applied with P = pi and D = the union of p(i+1) .. pn. *)
From Coq Require Import List Permutation.
From NM Require Import Engine EngineSpec.
From NP Require Import ListFacts EngineStep EngineMain ExportProofs ModularComplete EngineTerm EngineOrder.
Import ListNotations.

Record pkg := { p_ann : list (site * bool); p_ts : list trigger }.

Definition m_ann (l : list pkg) : list (site * bool) := concat (map p_ann l).
Definition m_ts (l : list pkg) : list trigger := concat (map p_ts l).

Lemma m_single facts p st : pkg_run facts (m_ann [p]) (m_ts [p]) st -> pkg_run facts (p_ann p) (p_ts p) st.
Proof. unfold m_ann, m_ts. cbn. now rewrite !app_nil_r. Qed.

Lemma pkg_run_agree facts annots ts st st' : pkg_run facts annots ts st -> pkg_run facts annots ts st' ->
  (conflicts st <> [] <-> conflicts st' <> []) /\ (conflicts st = [] -> forall s, dv st s = dv st' s).
Proof. apply engine_order_independent; apply Permutation_refl. Qed.

Section Chain.
  Variable exported : site -> bool.

  (* modular facts pkgs stI: the packages analysed one after the other, each with the facts published so far; stI is the
     state of the last one.  The side conditions are those of the one-step theorem, for every package but the last: it
     is conflict-free, everything downstream mentions its sites only through exported symbols, no controlled trigger of
     it is left pending (finding F15 shows this necessary), and the downstream triggers are well-formed (so that the
     engine terminates on them) *)
  Inductive modular : list (nat * fact) -> list pkg -> state -> Prop :=
  | mod_last : forall facts p st,
      pkg_run facts (p_ann p) (p_ts p) st -> modular facts [p] st
  | mod_cons : forall facts p rest up st fo n stI,
      pkg_run_up facts (p_ann p) (p_ts p) up st ->
      export exported up (mp st) = Some fo ->
      conflicts st = [] ->
      (forall s, In s (sites_of (csys_of [] (m_ann rest) (m_ts rest))) -> vis exported st s) ->
      (forall k a, In (k, a) (ctld (pkg_csys facts (p_ann p) (p_ts p))) -> dv st k <> None) ->
      wf_triggers (m_ts rest) ->
      modular (facts ++ opt_fact n fo) rest stI ->
      modular facts (p :: rest) stI.

  Theorem chain_equals_whole : forall facts pkgs stI,
    modular facts pkgs stI ->
    forall stW, pkg_run facts (m_ann pkgs) (m_ts pkgs) stW ->
    (conflicts stW <> [] <-> conflicts stI <> []).
  Proof.
    intros facts pkgs stI M. induction M as [facts p st R|facts p rest up st fo n stI Rp Ex Cf Vis Ctl Wf M IH]; intros stW RW.
    - exact (proj1 (pkg_run_agree _ _ _ _ _ (m_single _ _ _ RW) R)).
    - destruct (engine_terminates (facts ++ opt_fact n fo) (m_ann rest) (m_ts rest) Wf) as [stM RM].
      rewrite (modular_equals_whole exported facts (p_ann p) (p_ts p) up st fo (m_ann rest) (m_ts rest) n Rp Ex Cf Vis Ctl stW stM RW RM).
      exact (IH stM RM).
  Qed.
  (* ... and when the last run is conflict-free, the whole-program run and the last package's modular run give the same
     verdict to every site of a set V that is visible (exported, or unknown to the package) at every link of the chain *)
  Inductive modularV (V : site -> Prop) : list (nat * fact) -> list pkg -> state -> Prop :=
  | modV_last : forall facts p st,
      pkg_run facts (p_ann p) (p_ts p) st -> modularV V facts [p] st
  | modV_cons : forall facts p rest up st fo n stI,
      pkg_run_up facts (p_ann p) (p_ts p) up st ->
      export exported up (mp st) = Some fo ->
      conflicts st = [] ->
      (forall s, In s (sites_of (csys_of [] (m_ann rest) (m_ts rest))) -> vis exported st s) ->
      (forall k a, In (k, a) (ctld (pkg_csys facts (p_ann p) (p_ts p))) -> dv st k <> None) ->
      wf_triggers (m_ts rest) ->
      (forall s, V s -> vis exported st s) ->
      modularV V (facts ++ opt_fact n fo) rest stI ->
      modularV V facts (p :: rest) stI.

  Lemma modularV_modular : forall V facts pkgs stI, modularV V facts pkgs stI -> modular facts pkgs stI.
  Proof. intros V facts pkgs stI M. induction M; [apply mod_last; assumption|eapply mod_cons; eauto]. Qed.

  Theorem chain_verdicts_equal : forall V facts pkgs stI,
    modularV V facts pkgs stI ->
    forall stW, pkg_run facts (m_ann pkgs) (m_ts pkgs) stW ->
    conflicts stI = [] ->
    forall s, V s -> dv stW s = dv stI s.
  Proof.
    intros V facts pkgs stI M.
    induction M as [facts p st R|facts p rest up st fo n stI Rp Ex Cf Vis Ctl Wf HV M IH]; intros stW RW CI s Vs.
    - destruct (pkg_run_agree _ _ _ _ _ (m_single _ _ _ RW) R) as [I E]. exact (E (nil_of_iff _ _ I CI) s).
    - destruct (engine_terminates (facts ++ opt_fact n fo) (m_ann rest) (m_ts rest) Wf) as [stM RM].
      pose proof (nil_of_iff _ _ (chain_equals_whole _ _ _ (modularV_modular _ _ _ _ M) stM RM) CI) as CM.
      rewrite (modular_verdicts_equal exported facts (p_ann p) (p_ts p) up st fo (m_ann rest) (m_ts rest) n Rp Ex Cf Vis Ctl stW stM RW RM CM s (HV s Vs)).
      exact (IH stM RM CI s Vs).
  Qed.
End Chain.

(* a chain of three packages that meets every hypothesis: exported sites 1, 9, 8; p1 has 1 -> 2 -> 3 -> 9 (2, 3
   unexported); p2 has 9 -> 4 -> 8 (4 unexported); p3 makes 1 nilable and requires 8 to be non-nil.  No single package has
   a flow; the whole program has nil -> 1 -> ... -> 8 -> non-nil, and so has the modular run of p3 with the facts of p1
   and p2. *)
Definition exC_exported (s : site) : bool := Nat.eqb s 1 || Nat.eqb s 9 || Nat.eqb s 8.
Definition exC_p1 := {| p_ann := []; p_ts := [mk_t 10 (KCond 1) (KCond 2) None; mk_t 11 (KCond 2) (KCond 3) None; mk_t 12 (KCond 3) (KCond 9) None] |}.
Definition exC_p2 := {| p_ann := []; p_ts := [mk_t 13 (KCond 9) (KCond 4) None; mk_t 14 (KCond 4) (KCond 8) None] |}.
Definition exC_p3 := {| p_ann := []; p_ts := [mk_t 20 KAlways (KCond 1) None; mk_t 21 (KCond 8) KAlways None] |}.

Definition chain_1_8 : fact :=
  [(1, Undet [] [(2, 10)]); (2, Undet [(1, 10)] [(3, 11)]); (3, Undet [(2, 11)] [(9, 12)]); (9, Undet [(3, 12)] [(4, 13)]);
   (4, Undet [(9, 13)] [(8, 14)]); (8, Undet [(4, 14)] [])].
Definition chain_9_8 : fact := [(9, Undet [] [(4, 13)]); (4, Undet [(9, 13)] [(8, 14)]); (8, Undet [(4, 14)] [])].

Lemma exC_pkg1 : analyze_pkg exC_exported 100 [] (p_ann exC_p1) (p_ts exC_p1) =
  Finished {| r_conflicts := []; r_map := chain_1_9; r_chosen := [1; 2; 3; 9]; r_fact := Some chain_1_9 |}.
Proof. vm_compute. reflexivity. Qed.
Lemma exC_pkg2 : analyze_pkg exC_exported 100 ([] ++ opt_fact 0 (Some chain_1_9)) (p_ann exC_p2) (p_ts exC_p2) =
  Finished {| r_conflicts := []; r_map := chain_1_8; r_chosen := [1; 2; 3; 9; 4; 8]; r_fact := Some chain_9_8 |}.
Proof. vm_compute. reflexivity. Qed.
Lemma exC_pkg3 : exists r,
  analyze_pkg exC_exported 100 (([] ++ opt_fact 0 (Some chain_1_9)) ++ opt_fact 1 (Some chain_9_8)) (p_ann exC_p3) (p_ts exC_p3) = Finished r /\
  r_conflicts r <> [].
Proof. eexists. split; [vm_compute; reflexivity | discriminate]. Qed.
Lemma exC_whole : exists r,
  analyze_pkg exC_exported 100 [] (m_ann [exC_p1; exC_p2; exC_p3]) (m_ts [exC_p1; exC_p2; exC_p3]) = Finished r /\ r_conflicts r <> [].
Proof. eexists. split; [vm_compute; reflexivity | discriminate]. Qed.

Lemma exC_chain : exists stI stW,
  modular exC_exported [] [exC_p1; exC_p2; exC_p3] stI /\
  pkg_run [] (m_ann [exC_p1; exC_p2; exC_p3]) (m_ts [exC_p1; exC_p2; exC_p3]) stW /\
  conflicts stI <> [] /\ conflicts stW <> [].
Proof.
  destruct (analyze_pkg_run_up _ _ _ _ _ _ exC_pkg1) as [up1 [st1 [R1 [C1 [M1 X1]]]]]. cbn in C1, M1, X1.
  destruct (analyze_pkg_run_up _ _ _ _ _ _ exC_pkg2) as [up2 [st2 [R2 [C2 [M2 X2]]]]]. cbn in C2, M2, X2.
  destruct exC_pkg3 as [r3 [E3 H3]]. destruct (analyze_pkg_run _ _ _ _ _ _ (or_introl E3)) as [st3 [R3 [C3 _]]].
  destruct exC_whole as [rW [EW HW]]. destruct (analyze_pkg_run _ _ _ _ _ _ (or_introl EW)) as [stW [RW [CW _]]].
  exists st3, stW. split; [|split; [exact RW|split; congruence]].
  eapply mod_cons with (n := 0); [exact R1 | exact X1 | auto | apply vis_forallb; rewrite <- M1; reflexivity
                                 | intros k a [] | apply wf_uncontrolled; reflexivity | ].
  eapply mod_cons with (n := 1); [exact R2 | exact X2 | auto | apply vis_forallb; rewrite <- M2; reflexivity
                                 | intros k a [] | apply wf_uncontrolled; reflexivity | ].
  apply mod_last. exact R3.
Qed.

(* Moving functions between packages: two partitions of the same program into chains of packages (the unions of their
   annotations and triggers are permutations of each other: functions moved into a dependency or into an importer,
   packages merged or split), each meeting the side conditions of the chain theorem: the last modular run of the one reports a conflict iff the last
   modular run of the other does.  Both equal the one whole-program engine, which does not depend on the order. *)
Theorem chain_repartition : forall exported facts pkgs pkgs' stI stI',
  modular exported facts pkgs stI -> modular exported facts pkgs' stI' ->
  Permutation (m_ann pkgs) (m_ann pkgs') -> Permutation (m_ts pkgs) (m_ts pkgs') ->
  wf_triggers (m_ts pkgs) -> wf_triggers (m_ts pkgs') ->
  (conflicts stI <> [] <-> conflicts stI' <> []).
Proof.
  intros exported facts pkgs pkgs' stI stI' M M' Pa Pt Wf Wf'.
  destruct (engine_terminates facts (m_ann pkgs) (m_ts pkgs) Wf) as [stW RW].
  destruct (engine_terminates facts (m_ann pkgs') (m_ts pkgs') Wf') as [stW' RW'].
  rewrite <- (chain_equals_whole exported facts pkgs stI M stW RW).
  rewrite <- (chain_equals_whole exported facts pkgs' stI' M' stW' RW').
  exact (proj1 (engine_order_independent _ _ _ _ _ _ _ _ (Permutation_refl _) Pa Pt RW RW')).
Qed.

Theorem chain_repartition_verdicts : forall exported V facts pkgs pkgs' stI stI',
  modularV exported V facts pkgs stI -> modularV exported V facts pkgs' stI' ->
  Permutation (m_ann pkgs) (m_ann pkgs') -> Permutation (m_ts pkgs) (m_ts pkgs') ->
  wf_triggers (m_ts pkgs) -> wf_triggers (m_ts pkgs') ->
  conflicts stI = [] -> conflicts stI' = [] ->
  forall s, V s -> dv stI s = dv stI' s.
Proof.
  intros exported V facts pkgs pkgs' stI stI' M M' Pa Pt Wf Wf' C C' s Vs.
  destruct (engine_terminates facts (m_ann pkgs) (m_ts pkgs) Wf) as [stW RW].
  destruct (engine_terminates facts (m_ann pkgs') (m_ts pkgs') Wf') as [stW' RW'].
  rewrite <- (chain_verdicts_equal exported V facts pkgs stI M stW RW C s Vs).
  rewrite <- (chain_verdicts_equal exported V facts pkgs' stI' M' stW' RW' C' s Vs).
  destruct (engine_order_independent _ _ _ _ _ _ _ _ (Permutation_refl facts) Pa Pt RW RW') as [I E].
  exact (E (nil_of_iff _ _ (chain_equals_whole exported facts pkgs stI (modularV_modular _ _ _ _ _ M) stW RW) C) s).
Qed.

(* non-vacuity: the three-package chain above and the two-package chain obtained by moving every function of p2 into p1 *)
Definition exC_p12 := {| p_ann := []; p_ts := p_ts exC_p1 ++ p_ts exC_p2 |}.

Lemma exC_pkg12 : analyze_pkg exC_exported 100 [] (p_ann exC_p12) (p_ts exC_p12) =
  Finished {| r_conflicts := []; r_map := chain_1_8; r_chosen := [1; 2; 3; 9; 4; 8]; r_fact := Some chain_1_8 |}.
Proof. vm_compute. reflexivity. Qed.
Lemma exC_pkg3' : exists r,
  analyze_pkg exC_exported 100 ([] ++ opt_fact 0 (Some chain_1_8)) (p_ann exC_p3) (p_ts exC_p3) = Finished r /\ r_conflicts r <> [].
Proof. eexists. split; [vm_compute; reflexivity | discriminate]. Qed.

Lemma exC_chain2 : exists stI, modular exC_exported [] [exC_p12; exC_p3] stI /\ conflicts stI <> [].
Proof.
  destruct (analyze_pkg_run_up _ _ _ _ _ _ exC_pkg12) as [up1 [st1 [R1 [C1 [M1 X1]]]]]. cbn in C1, M1, X1.
  destruct exC_pkg3' as [r3 [E3 H3]]. destruct (analyze_pkg_run _ _ _ _ _ _ (or_introl E3)) as [st3 [R3 [C3 _]]].
  exists st3. split; [|congruence].
  eapply mod_cons with (n := 0); [exact R1 | exact X1 | auto | apply vis_forallb; rewrite <- M1; reflexivity
                                 | intros k a [] | apply wf_uncontrolled; reflexivity | ].
  apply mod_last. exact R3.
Qed.

Lemma exC_repartition_hyps :
  Permutation (m_ann [exC_p1; exC_p2; exC_p3]) (m_ann [exC_p12; exC_p3]) /\
  Permutation (m_ts [exC_p1; exC_p2; exC_p3]) (m_ts [exC_p12; exC_p3]) /\
  wf_triggers (m_ts [exC_p1; exC_p2; exC_p3]) /\ wf_triggers (m_ts [exC_p12; exC_p3]).
Proof.
  split; [apply Permutation_refl|]. split; [vm_compute; apply Permutation_refl|].
  split; apply wf_uncontrolled; reflexivity.
Qed.
