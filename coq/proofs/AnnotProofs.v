(* C10 at engine level: annotations are binding. *)
From Coq Require Import List PeanoNat Permutation.
From NM Require Import Engine EngineSpec.
From NP Require Import EngineBasics EngineStep EngineMain EngineTerm.
Import ListNotations.

Lemma annot_step st s b : ctl st = [] -> lookup (mp st) s = None ->
  step st (ISite s (EAnnot b s)) = (set_mp st (store (mp st) s (Det (EAnnot b s))), []).
Proof. intros Hc Hf. cbn. rewrite Hf. unfold activate. rewrite Hc. now destruct b. Qed.

Lemma annots_run : forall (l : list (site * bool)) st st',
  ctl st = [] -> NoDup (map fst l) -> (forall s, In s (map fst l) -> lookup (mp st) s = None) ->
  Run st (map (fun sb => ISite (fst sb) (EAnnot (snd sb) (fst sb))) l) st' ->
  forall s b, In (s, b) l -> det_l (mp st') s = Some (EAnnot b s).
Proof.
  induction l as [|[s0 b0] l IH]; intros st st' Hc Hnd Hfresh HR s b Hin; [destruct Hin|].
  inversion Hnd as [|? ? Hnotin Hnd']; subst.
  inversion HR as [|? ? ? st1 new ? Hs HR']; subst. cbn [fst snd] in Hs.
  rewrite (annot_step st s0 b0 Hc (Hfresh s0 (or_introl eq_refl))) in Hs. injection Hs as <- <-. cbn [app] in HR'.
  destruct Hin as [[= -> ->]|Hin].
  - eapply Run_det_mono; [exact HR'|]. cbn. now rewrite det_store_det, Nat.eqb_refl.
  - refine (IH _ st' _ Hnd' _ HR' s b Hin); [exact Hc|]. intros x Hx. cbn. rewrite lookup_store.
    destruct (Nat.eqb_spec s0 x) as [->|_]; [contradiction | apply Hfresh; now right].
Qed.

Lemma sort_by_fst_nodup {B} (l : list (nat * B)) : NoDup (map fst l) -> NoDup (map fst (sort_by fst l)).
Proof.
  intros H. eapply Permutation_NoDup; [|exact H]. apply Permutation_map. symmetry. apply sort_by_perm.
Qed.

(* one more unconditional source in a system without guarded atoms: what becomes nilable was nilable before or is
   reached from the new source, so that a requirement on it is a requirement on the source *)
Section AddSrc.
  Variables (C C' : csys) (s : site).
  Hypothesis Hb : forall a, In a (base C') -> a = ASrc s \/ In a (base C).
  Hypothesis Hk : forall ka, ~ In ka (ctld C').

  Lemma add_src_act a : act C' a -> a = ASrc s \/ act C a.
  Proof. intros [Ha|[k [Ha _]]]; [destruct (Hb a Ha); auto; right; now left | destruct (Hk _ Ha)]. Qed.

  Lemma add_src_nonr x : nonr C' x -> nonr C x.
  Proof.
    induction 1 as [x Ha | p c t Ha _ IH]; destruct (add_src_act _ Ha) as [E|Ha']; try discriminate;
      [now apply nn_snk | now apply nn_edge with c t].
  Qed.

  Lemma add_src_nilr x : nilr C' x -> nilr C x \/ (nonr C' x -> nonr C' s).
  Proof.
    induction 1 as [x Hin | k x Hin _ _ | p c t Hin _ IH | k p c t Hin _ _ _ _]; try (destruct (Hk _ Hin)).
    - destruct (Hb _ Hin) as [[= ->]|Hin']; [right; auto | left; now apply nr_src].
    - destruct (Hb _ Hin) as [E|Hin']; [discriminate|].
      destruct IH as [IH|IH]; [left; now apply nr_edge with p t | right].
      intros Hc. apply IH. exact (nn_edge _ _ _ _ (or_introl Hin) Hc).
  Qed.

  Lemma add_src_flow : has_flow C' -> has_flow C \/ nonr C' s.
  Proof.
    intros [[t Ha]|[x [Hn Hq]]].
    - destruct (add_src_act _ Ha) as [E|Ha']; [discriminate|]. left; left; eauto.
    - destruct (add_src_nilr x Hn) as [H|H]; [left; right; exists x; split; [exact H | now apply add_src_nonr] | right; auto].
  Qed.
End AddSrc.

Section Annot.
  Variables (facts : list (nat * fact)) (annots : list (site * bool)) (ts : list trigger).
  Let C := pkg_csys facts annots ts.

  (* sites that the imported facts mention *)
  Definition fact_sites : list site := flat_map sites_of_item (upstream_items facts).

  Theorem annotation_wins st :
    pkg_run facts annots ts st -> NoDup (map fst annots) ->
    (forall s, In s (map fst annots) -> ~ In s fact_sites) ->
    forall s b, In (s, b) annots -> det_l (mp st) s = Some (EAnnot b s).
  Proof.
    intros [st0 [st1 [RA [RB RC]]]] Hnd Hfresh s b Hin.
    assert (CA : closed fact_sites init_state (upstream_items facts)).
    { constructor; cbn; try (intros; contradiction).
      intros it x Hit Hx. unfold fact_sites. apply in_flat_map. eauto. }
    pose proof (Run_closed _ _ _ _ RA CA) as C0.
    assert (H1 : det_l (mp st1) s = Some (EAnnot b s)).
    { eapply (annots_run (sort_by fst annots) st0 st1); eauto.
      - now rewrite (Run_ctl _ _ _ RA).
      - now apply sort_by_fst_nodup.
      - intros x Hx. destruct (lookup (mp st0) x) eqn:E; [exfalso | reflexivity].
        apply (Hfresh x).
        + apply in_map_iff in Hx. destruct Hx as [[x' b'] [<- Hx]]. apply In_sort_by in Hx.
          apply in_map_iff. exists (x', b'). auto.
        + apply (cl_dom _ _ _ C0). congruence.
      - now apply In_sort_by. }
    eapply Run_det_mono; eauto.
  Qed.

  Theorem annotated_nonnil_reported st s :
    pkg_run facts annots ts st -> In (s, false) annots -> nilr C s -> conflicts st <> [].
  Proof.
    intros HR Hin Hn. apply (engine_conflict_iff_flow _ _ _ _ HR). right. exists s. split; auto.
    apply nn_snk. left. apply (in_base_annot facts annots ts s false Hin).
  Qed.

  Theorem annotated_nilable_reported st s :
    pkg_run facts annots ts st -> In (s, true) annots -> nonr C s -> conflicts st <> [].
  Proof.
    intros HR Hin Hn. apply (engine_conflict_iff_flow _ _ _ _ HR). right. exists s. split; auto.
    apply nr_src. apply (in_base_annot facts annots ts s true Hin).
  Qed.

  (* annotating a site nilable adds no conflict when the site reaches no non-nil requirement
     (all its uses are guarded: no active constraint path from it to a sink) *)
  Theorem nilable_annotation_silent st st' s :
    pkg_run facts annots ts st -> pkg_run facts ((s, true) :: annots) ts st' ->
    conflicts st = [] -> ~ nonr (pkg_csys facts ((s, true) :: annots) ts) s ->
    (forall k a, In (k, a) (ctld C) -> False) ->
    conflicts st' = [].
  Proof.
    intros HR HR' Hc Hnn Hnoctl. destruct (conflicts st') eqn:E; auto. exfalso.
    assert (HF : has_flow (pkg_csys facts ((s, true) :: annots) ts)) by (apply (engine_conflict_iff_flow _ _ _ _ HR'); congruence).
    apply (add_src_flow C _ s) in HF.
    - destruct HF as [HF|HF]; [apply (engine_conflict_iff_flow _ _ _ _ HR) in HF; congruence | exact (Hnn HF)].
    - intros a Ha. apply in_app_or in Ha.
      destruct Ha as [Ha|[Ha|Ha]]; [right; apply in_or_app; now left | left; symmetry; exact Ha | right; apply in_or_app; now right].
    - intros [k a]. exact (Hnoctl k a).
  Qed.
End Annot.
