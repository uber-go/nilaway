(* Facts about MiniGo (model/MiniGo.v): equality of variables; COr as the dual of CAnd; lookup in a store after an
   update (of a target that may be absent), in the store a callee starts from, in the store a caller continues with,
   and in the initial store of the package-level variables. *)
From Coq Require Import List PeanoNat Lia.
From NM Require Import MiniGo.
Import ListNotations.

Lemma var_eqb_eq x y : var_eqb x y = true <-> x = y.
Proof.
  destruct x, y; cbn; split; intros H; try discriminate; try (apply Nat.eqb_eq in H; now subst);
    inversion H; subst; apply Nat.eqb_refl.
Qed.
Lemma var_eqb_refl x : var_eqb x x = true.
Proof. now apply var_eqb_eq. Qed.
Lemma var_eqb_neq x y : var_eqb x y = false <-> x <> y.
Proof. rewrite <- var_eqb_eq. destruct (var_eqb x y); split; congruence. Qed.
Lemma var_eq_dec (x y : var) : {x = y} + {x <> y}.
Proof. decide equality; apply Nat.eq_dec. Qed.

Lemma eqb_add_S i j : Nat.eqb i (i + S j) = false.
Proof. apply Nat.eqb_neq. lia. Qed.

(* c1 || c2 evaluates as !(!c1 && !c2), short circuit included: a fact about conditions that is stated through
   functions which respect this needs no case for COr *)
Definition or_as_and (c1 c2 : cond) : cond := CNot (CAnd (CNot c1) (CNot c2)).

Lemma eval_cond_or s c1 c2 o : eval_cond s (COr c1 c2) o = eval_cond s (or_as_and c1 c2) o.
Proof. cbn. destruct (eval_cond s c1 o) as [[|] o'|]; cbn; auto. now destruct (eval_cond s c2 o') as [[|] o''|]. Qed.

Lemma cond_ind_or (P : cond -> Prop) :
  P COpaque -> (forall x, P (CNonNil x)) -> (forall d x, P (CDeref d x)) -> (forall c, P c -> P (CNot c)) ->
  (forall c1 c2, P c1 -> P c2 -> P (CAnd c1 c2)) -> (forall c1 c2, P (or_as_and c1 c2) -> P (COr c1 c2)) ->
  forall c, P c.
Proof. intros Ho Hn Hd Hnot Hand Hor. induction c; auto. apply Hor, Hnot, Hand; auto. Qed.

Lemma sget_sset s x v y : sget (sset s x v) y = if var_eqb x y then v else sget s y.
Proof. reflexivity. Qed.

(* an assignment whose target may be absent (the results of a call need not be kept) *)
Definition is_target (x : option var) (z : var) : bool := match x with Some y => var_eqb y z | None => false end.
Definition oset (s : store) (x : option var) (v : value) : store := match x with Some y => sset s y v | None => s end.

Lemma sget_oset s x v z : sget (oset s x v) z = if is_target x z then v else sget s z.
Proof. destruct x; reflexivity. Qed.

Lemma sget_filter (P : var -> bool) s x : sget (filter (fun yv => P (fst yv)) s) x = if P x then sget s x else VNil.
Proof.
  induction s as [|[y v] s IH]; cbn; [now destruct (P x)|].
  destruct (var_eqb y x) eqn:E.
  - apply var_eqb_eq in E. subst y. destruct (P x); cbn; [now rewrite var_eqb_refl | exact IH].
  - destruct (P y); cbn; [now rewrite E | exact IH].
Qed.

Lemma sget_after s' s x : sget (globals_of s' ++ locals_of s) x = if is_glob x then sget s' x else sget s x.
Proof.
  induction s' as [|[y v] s' IH]; cbn.
  - unfold locals_of. rewrite (sget_filter (fun y => negb (is_glob y))). now destruct (is_glob x).
  - destruct (var_eqb y x) eqn:E.
    + apply var_eqb_eq in E. subst y. destruct (is_glob x); cbn; [now rewrite var_eqb_refl | exact IH].
    + destruct (is_glob y); cbn; [now rewrite E | exact IH].
Qed.

Lemma sget_globals_local s i : sget (globals_of s) (VL i) = VNil.
Proof. unfold globals_of. now rewrite (sget_filter is_glob). Qed.

Lemma sget_bind_params vs r : forall i0 j,
  sget (bind_params i0 vs ++ r) (VL (i0 + j)) = match nth_error vs j with Some v => v | None => sget r (VL (i0 + j)) end.
Proof.
  induction vs as [|v vs IH]; intros i0 [|j]; cbn; auto.
  - now rewrite Nat.add_0_r, Nat.eqb_refl.
  - rewrite eqb_add_S, <- Nat.add_succ_comm. apply IH.
Qed.
Lemma sget_bind_params_glob vs r k : forall i0, sget (bind_params i0 vs ++ r) (VG k) = sget r (VG k).
Proof. induction vs as [|v vs IH]; intros i0; cbn; auto. Qed.

Lemma sget_callee vs s x : sget (bind_params 0 vs ++ globals_of s) x =
  match x with
  | VL i => match nth_error vs i with Some v => v | None => VNil end
  | VG _ => sget s x
  end.
Proof.
  destruct x as [i|k].
  - rewrite (sget_bind_params vs _ 0 i), sget_globals_local. reflexivity.
  - rewrite sget_bind_params_glob. unfold globals_of. now rewrite (sget_filter is_glob).
Qed.

Lemma sget_init_globals_lt gi : forall k0 k, k < k0 -> sget (init_globals k0 gi) (VG k) = VNil.
Proof.
  induction gi as [|b gi IH]; intros k0 k H; cbn; auto.
  destruct b; cbn; [destruct (Nat.eqb_spec k0 k); [lia|]|]; apply IH; lia.
Qed.
Lemma sget_init_globals gi : forall k0 j, sget (init_globals k0 gi) (VG (k0 + j)) =
  match nth_error gi j with Some true => VPtr None | _ => VNil end.
Proof.
  induction gi as [|b gi IH]; intros k0 [|j]; cbn [init_globals nth_error]; auto.
  - rewrite Nat.add_0_r. destruct b; cbn; [now rewrite Nat.eqb_refl | apply sget_init_globals_lt; lia].
  - rewrite <- (IH (S k0) j), Nat.add_succ_comm. destruct b; cbn; auto. now rewrite eqb_add_S.
Qed.
Lemma sget_init gi k : sget (init_globals 0 gi) (VG k) = match nth_error gi k with Some true => VPtr None | _ => VNil end.
Proof. exact (sget_init_globals gi 0 k). Qed.
Lemma sget_init_globals_plain gi x : forall k0, sget (init_globals k0 gi) x = VNil \/ sget (init_globals k0 gi) x = VPtr None.
Proof.
  induction gi as [|b gi IH]; intros k0; cbn [init_globals]; auto.
  destruct b; cbn [app sget fst]; [destruct (var_eqb (VG k0) x); auto|]; apply IH.
Qed.
