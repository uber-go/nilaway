(* C19: the operator tables and the checker loop of AddNilCheck (gen/Tables.v) attach each conclusion to the right branch. *)
From Coq Require Import ZArith Bool List Lia.
From NM Require Import Cmp.
From NG Require Import Tables.
Import ListNotations.
Open Scope Z_scope.

Definition conv := totalise converse_gen.
Definition inv := totalise inverse_gen.

Lemma tables_closed : forall t, (exists u, converse_gen t = Some u) /\ (exists u, inverse_gen t = Some u).
Proof. intros []; split; eexists; reflexivity. Qed.

Lemma tables_total : forall t, converse_gen t <> None /\ inverse_gen t <> None.
Proof. intros t. destruct (tables_closed t) as [[u ->] [w ->]]. split; discriminate. Qed.

Lemma eval_converse : forall o a b, eval o a b = eval (conv o) b a.
Proof. intros [] a b; cbn; try reflexivity; rewrite Z.eqb_sym; reflexivity. Qed.

Lemma eval_inverse : forall o a b, eval o a b = negb (eval (inv o) a b).
Proof.
  intros [] a b; cbn; rewrite ?negb_involutive; try reflexivity;
  try (rewrite Z.ltb_antisym; rewrite ?negb_involutive; reflexivity);
  try (rewrite Z.leb_antisym; rewrite ?negb_involutive; reflexivity).
Qed.

Lemma conv_involutive : forall o, conv (conv o) = o.
Proof. intros []; reflexivity. Qed.
Lemma inv_involutive : forall o, inv (inv o) = o.
Proof. intros []; reflexivity. Qed.
Lemma conv_inv_commute : forall o, conv (inv o) = inv (conv o).
Proof. intros []; reflexivity. Qed.

Lemma shape_ok : tables_shape_ok = true.
Proof. reflexivity. Qed.

Lemma classes_known : forallb (fun ck => match ck_cls ck with ClsUnknown => false | _ => true end) checkers_gen = true.
Proof. reflexivity. Qed.

Lemma not_swaps : not_swaps_gen = true.
Proof. reflexivity. Qed.

Definition apply := apply_checkers conv inv loop_gen checkers_gen.
Definition checke := check conv inv not_swaps_gen loop_gen checkers_gen.
Definition flat := run_flat conv inv loop_gen checkers_gen.

Definition ptr v := {| o_kind := OPtr; o_val := v |}.
Definition nil_lit := {| o_kind := ONilLit; o_val := 0 |}.
Definition len_of v := {| o_kind := OLen; o_val := v |}.
Definition zero_lit := {| o_kind := OZeroLit; o_val := 0 |}.

Lemma nil_spellings : forall v,
  apply NEQ (ptr v) nil_lit = Some (true, false, ptr v) /\
  apply NEQ nil_lit (ptr v) = Some (true, false, ptr v) /\
  apply EQL (ptr v) nil_lit = Some (false, true, ptr v) /\
  apply EQL nil_lit (ptr v) = Some (false, true, ptr v).
Proof. intros v; repeat split; reflexivity. Qed.

Lemma len_spellings : forall v,
  apply NEQ (len_of v) zero_lit = Some (true, false, len_of v) /\
  apply NEQ zero_lit (len_of v) = Some (true, false, len_of v) /\
  apply EQL (len_of v) zero_lit = Some (false, true, len_of v) /\
  apply EQL zero_lit (len_of v) = Some (false, true, len_of v) /\
  apply GTR (len_of v) zero_lit = Some (true, false, len_of v) /\
  apply LSS zero_lit (len_of v) = Some (true, false, len_of v) /\
  apply LEQ (len_of v) zero_lit = Some (false, true, len_of v) /\
  apply GEQ zero_lit (len_of v) = Some (false, true, len_of v).
Proof. intros v; repeat split; reflexivity. Qed.

Example attribution_nonvacuous :
  operand_ok (ptr 7) /\ operand_ok nil_lit /\ apply NEQ nil_lit (ptr 7) = Some (true, false, ptr 7).
Proof. repeat split. Qed.

Lemma first_some_ext : forall {A B} (f g : A -> option B) l, (forall a, f a = g a) -> first_some f l = first_some g l.
Proof. intros A B f g l E. induction l as [|a l IH]; cbn; [reflexivity|]. rewrite E, IH. reflexivity. Qed.

Lemma first_some_all : forall {A B} (P : option B -> Prop) (f : A -> option B) l,
  P None -> Forall (fun a => P (f a)) l -> P (first_some f l).
Proof.
  intros A B P f l N H. induction H as [|a l Ha _ IH]; cbn; [exact N|].
  destruct (f a); [exact Ha|exact IH].
Qed.

Lemma matcher_atomic : forall ck a va b vb, ck_cls ck <> ClsBoolConst ->
  matcher ck a va b vb = if matches (ck_cls ck) (oper a va) (oper b vb) then Some (ck_true ck, ck_false ck, oper a va) else None.
Proof. intros ck a va b vb C. unfold matcher. destruct (ck_cls ck); try reflexivity. congruence. Qed.

Lemma matcher_atoms : forall ck x y, matcher ck (ShAtom (o_kind x)) (o_val x) (ShAtom (o_kind y)) (o_val y) =
  if matches (ck_cls ck) x y then Some (ck_true ck, ck_false ck, x) else None.
Proof. intros ck [kx vx] [ky vy]. unfold matcher. destruct (ck_cls ck); reflexivity. Qed.

Lemma run_if_e_atoms : forall cv iv li ck o x y,
  run_if_e cv iv li ck o (ShAtom (o_kind x)) (o_val x) (ShAtom (o_kind y)) (o_val y) = run_if cv iv li ck o x y.
Proof.
  intros cv iv li ck o x y. unfold run_if_e, run_if. destruct (_ || _); [|reflexivity].
  destruct (li_swapargs li); cbv beta iota; rewrite matcher_atoms;
    (destruct (matches _ _ _); [destruct (tok_eqb _ _)|]; reflexivity).
Qed.

Lemma checke_not : forall e, checke (ENot e) = swap_res (checke e).
Proof. intros e. unfold checke. cbn [check]. now rewrite not_swaps. Qed.

Lemma checke_cmp : forall o a b, checke (ECmp o a b) = flat o (shape_of a (checke a)) (ev a) (shape_of b (checke b)) (ev b).
Proof. reflexivity. Qed.

Lemma check_atoms : forall o x y, checke (ECmp o (EOp x) (EOp y)) = apply o x y.
Proof.
  intros o x y. apply first_some_ext. intros ck. apply first_some_ext. intros li. apply run_if_e_atoms.
Qed.

Definition sound_val (v : Z) (r : res) : Prop :=
  match r with
  | Some (t, f, s) => (t = true -> v = 1 -> subject_nonnil s) /\ (f = true -> v = 0 -> subject_nonnil s)
  | None => True
  end.

Definition shp_ok (sh : shape) (v : Z) : Prop :=
  match sh with
  | ShAtom k => operand_ok {| o_kind := k; o_val := v |}
  | ShBool b => v = b2z b
  | ShCond r => sound_val v r /\ (r <> None -> v = 0 \/ v = 1)
  end.

Lemma sound_val_b2z : forall b t f s,
  (t = true -> b = true -> subject_nonnil s) -> (f = true -> b = false -> subject_nonnil s) ->
  sound_val (b2z b) (Some (t, f, s)).
Proof. intros [] t f s Ht Hf; split; intros T E; try discriminate E; auto. Qed.

(* the other outcome, the other conclusion: a negation, the inverse operator, a comparison with `false` *)
Lemma sound_val_swap : forall b r, sound_val (b2z b) r -> sound_val (b2z (negb b)) (swap_res r).
Proof. intros b [[[t f] s]|] H; [|exact I]. destruct H as [Ht Hf]. destruct b; split; intros T E; try discriminate E; auto. Qed.

Lemma bit_b2z : forall v, v = 0 \/ v = 1 -> v = b2z (v =? 1).
Proof. intros v [->| ->]; reflexivity. Qed.

(* one matcher, on a comparison by its own operator *)
Definition matcher_sound (ck : checker) : Prop := forall a va b vb,
  shp_ok a va -> shp_ok b vb -> sound_val (b2z (eval (ck_op ck) va vb)) (matcher ck a va b vb).

Definition ck_sound (ck : checker) : Prop := forall x y,
  operand_ok x -> operand_ok y -> matches (ck_cls ck) x y = true ->
  sound_val (b2z (eval (ck_op ck) (o_val x) (o_val y))) (Some (ck_true ck, ck_false ck, x)).

Lemma oper_ok : forall sh v, shp_ok sh v -> operand_ok (oper sh v) /\ o_val (oper sh v) = v.
Proof. intros [k|b|r] v H; split; try reflexivity; try exact I. exact H. Qed.

Lemma atomic_matcher_sound : forall ck, ck_cls ck <> ClsBoolConst -> ck_sound ck -> matcher_sound ck.
Proof.
  intros ck C S a va b vb Ha Hb. rewrite matcher_atomic by exact C.
  destruct (matches _ _ _) eqn:M; [|exact I].
  destruct (oper_ok a va Ha) as [Oa Ea], (oper_ok b vb Hb) as [Ob Eb].
  specialize (S _ _ Oa Ob M). rewrite Ea, Eb in S. exact S.
Qed.

(* `c == true` concludes what c does, `c == false` the opposite *)
Lemma boolconst_matcher_sound : forall ck, ck_cls ck = ClsBoolConst -> ck_op ck = EQL -> matcher_sound ck.
Proof.
  intros ck C O a va b vb Ha Hb. unfold matcher. rewrite C, O.
  destruct b as [|v|]; try exact I. cbn in Hb. subst vb.
  destruct a as [| |[r|]]; try (destruct v; exact I).
  destruct Ha as [S B]. rewrite (bit_b2z va (B ltac:(discriminate))) in *. cbn [eval].
  destruct (va =? 1), v; try exact S; exact (sound_val_swap _ _ S).
Qed.

Lemma checkers_sound : Forall matcher_sound checkers_gen.
Proof.
  repeat constructor.
  all: try (apply boolconst_matcher_sound; reflexivity).
  all: apply atomic_matcher_sound; [discriminate|]; intros [kx vx] [ky vy] Hx Hy M.
  all: destruct kx; try discriminate M; destruct ky; try discriminate M.
  all: apply sound_val_b2z; intros T E; try discriminate T.
  all: unfold operand_ok, subject_nonnil in *; cbn [o_kind o_val ck_op eval] in *; lia.
Qed.

(* one `if` of the loop: the operator it fires on is the checker's, conversed if it swaps the operands, inverted
   if it swaps the conclusions *)
Definition li_sound (li : loop_if) : Prop := forall o binop,
  tok_eqb binop (li_c1 li conv inv o) || tok_eqb binop (li_c2 li conv inv o) = true ->
  (if li_swapargs li then conv binop else binop) = (if tok_eqb binop (li_swapwhen li conv inv o) then inv o else o).

Lemma loop_sound : Forall li_sound loop_gen.
Proof. repeat constructor; intros [] []; cbn; intros F; try discriminate F; reflexivity. Qed.

Lemma swapwhen_sound : forall (c : bool) o o' va vb r,
  o' = (if c then inv o else o) -> sound_val (b2z (eval o va vb)) r ->
  sound_val (b2z (eval o' va vb)) match r with Some (t, f, s) => if c then Some (f, t, s) else Some (t, f, s) | None => None end.
Proof.
  intros [] o o' va vb [[[t f] s]|] -> H; try exact H.
  rewrite (eval_inverse (inv o)), inv_involutive. exact (sound_val_swap _ _ H).
Qed.

Lemma run_if_e_sound : forall li ck, li_sound li -> matcher_sound ck -> forall binop x vx y vy,
  shp_ok x vx -> shp_ok y vy -> sound_val (b2z (eval binop vx vy)) (run_if_e conv inv li ck binop x vx y vy).
Proof.
  intros li ck L M binop x vx y vy Hx Hy. unfold run_if_e.
  destruct (_ || _) eqn:F; [|exact I]. specialize (L _ _ F).
  destruct (li_swapargs li); [rewrite eval_converse|]; apply (swapwhen_sound _ _ _ _ _ _ L), M; assumption.
Qed.

Lemma flat_step : forall binop sa va sb vb,
  shp_ok sa va -> shp_ok sb vb ->
  sound_val (b2z (eval binop va vb)) (flat binop sa va sb vb).
Proof.
  intros binop sa va sb vb Ha Hb. set (P := sound_val (b2z (eval binop va vb))).
  apply (first_some_all P); [exact I|].
  eapply Forall_impl; [|exact checkers_sound]. intros ck M. apply (first_some_all P); [exact I|].
  eapply Forall_impl; [|exact loop_sound]. intros li L. apply run_if_e_sound; assumption.
Qed.

Lemma check_some_cond : forall e r, checke e = Some r -> is_cond e = true.
Proof. intros [x|b|e|o a b] r H; try discriminate; reflexivity. Qed.

Lemma ev_cond : forall e, is_cond e = true -> ev e = 0 \/ ev e = 1.
Proof.
  intros [x|b|e|o a b] H; try discriminate; cbn [ev].
  - destruct b; auto.
  - destruct (negb _); auto.
  - destruct (eval _ _ _); auto.
Qed.

Lemma shape_of_ok : forall e, wf_expr e -> sound_val (ev e) (checke e) -> shp_ok (shape_of e (checke e)) (ev e).
Proof.
  intros [[k v]|b|e|o a b] W S; cbn [shape_of shp_ok]; auto;
    (split; [exact S|]; intros N; apply ev_cond; reflexivity).
Qed.

Lemma check_sound : forall e, wf_expr e -> sound_val (ev e) (checke e).
Proof.
  induction e as [x|b|e IH|o a IHa b IHb]; intros W; try exact I.
  - rewrite checke_not. specialize (IH W). destruct (checke e) as [r|] eqn:E; [|exact I].
    rewrite (bit_b2z (ev e)) in IH by (apply ev_cond; eapply check_some_cond; exact E).
    exact (sound_val_swap _ _ IH).
  - destruct W as [Wa Wb]. rewrite checke_cmp. apply flat_step; apply shape_of_ok; auto.
Qed.

(* Branch attribution for nested conditions: negations, comparisons with boolean constants, to any depth. *)
Lemma branch_attribution_nested : forall e t f s,
  wf_expr e -> checke e = Some (t, f, s) ->
  (t = true -> ev e = 1 -> subject_nonnil s) /\ (f = true -> ev e = 0 -> subject_nonnil s).
Proof. intros e t f s W H. pose proof (check_sound e W) as G. rewrite H in G. exact G. Qed.

(* Branch attribution: whenever the loop attaches the "non-nil" effect to a branch, then on that branch
   the subject really is non-nil, for every operator spelling and all operand values. *)
Lemma branch_attribution : forall binop x y t f s,
  operand_ok x -> operand_ok y ->
  apply binop x y = Some (t, f, s) ->
  (t = true -> eval binop (o_val x) (o_val y) = true -> subject_nonnil s) /\
  (f = true -> eval binop (o_val x) (o_val y) = false -> subject_nonnil s).
Proof.
  intros binop x y t f s Hx Hy H. rewrite <- check_atoms in H.
  destruct (branch_attribution_nested _ t f s (conj Hx Hy : wf_expr (ECmp binop (EOp x) (EOp y))) H) as [Ht Hf].
  cbn [ev] in Ht, Hf. split; intros T E; [apply Ht|apply Hf]; auto; rewrite E; reflexivity.
Qed.

Definition cmp o a b := ECmp o a b.
Definition atom x := EOp x.

Lemma bool_const_spellings : forall v,
  let c := cmp NEQ (atom (ptr v)) (atom nil_lit) in            (* p != nil *)
  checke (cmp EQL c (EBool true)) = Some (true, false, ptr v) /\
  checke (cmp EQL (EBool true) c) = Some (true, false, ptr v) /\
  checke (cmp NEQ c (EBool false)) = Some (true, false, ptr v) /\
  checke (cmp NEQ (EBool false) c) = Some (true, false, ptr v) /\
  checke (cmp EQL c (EBool false)) = Some (false, true, ptr v) /\
  checke (cmp NEQ (EBool true) c) = Some (false, true, ptr v) /\
  checke (ENot (cmp EQL c (EBool false))) = Some (true, false, ptr v) /\
  checke (cmp EQL (cmp NEQ (ENot c) (EBool true)) (EBool true)) = Some (true, false, ptr v).
Proof. intros v; repeat split; reflexivity. Qed.

Example nested_nonvacuous :
  wf_expr (cmp EQL (cmp EQL (atom nil_lit) (atom (ptr 7))) (EBool false)) /\
  checke (cmp EQL (cmp EQL (atom nil_lit) (atom (ptr 7))) (EBool false)) = Some (true, false, ptr 7) /\
  ev (cmp EQL (cmp EQL (atom nil_lit) (atom (ptr 7))) (EBool false)) = 1.
Proof. repeat split; cbn; auto. Qed.
