(* M5 x M14: the conditions of a short-circuit value expression are whatever AddNilCheck recognises.  A nested condition about
   one pointer (comparisons with nil in either order, negations, comparisons with boolean constants in either order, to any
   depth) is turned into the condition record of M14 by running M5's interpreter of AddNilCheck (Cmp.check over the GENERATED
   checker list) on it; its conclusions are right by CmpProofs.branch_attribution_nested (C19), so the soundness theorem of M14 applies. *)
From Coq Require Import ZArith List.
From NM Require Import Cmp ShortCircuit.
From NP Require Import CmpProofs ShortCircuitProofs.
Import ListNotations.
Open Scope Z_scope.

Inductive ncond :=
  | NAtom (eq swap : bool)                       (* v == nil / v != nil; swap: nil on the left *)
  | NNot (c : ncond)                             (* !c *)
  | NEqB (c : ncond) (neq b constFirst : bool).  (* c == b, c != b, b == c, b != c *)

Definition pv (n : bool) : operand := ptr (if n then 0 else 1).

Fixpoint to_expr (n : bool) (c : ncond) : expr :=
  match c with
  | NAtom eq sw =>
      ECmp (if eq then EQL else NEQ) (if sw then EOp nil_lit else EOp (pv n)) (if sw then EOp (pv n) else EOp nil_lit)
  | NNot c' => ENot (to_expr n c')
  | NEqB c' neq b cf =>
      ECmp (if neq then NEQ else EQL) (if cf then EBool b else to_expr n c') (if cf then to_expr n c' else EBool b)
  end.

Definition truth (c : ncond) (n : bool) : bool := ev (to_expr n c) =? 1.
Definition concl (c : ncond) : bool * bool :=
  match checke (to_expr true c) with Some (t, f, _) => (t, f) | None => (false, false) end.
Definition cond_of (c : ncond) : cond1 := {| c_truth := truth c; c_t := fst (concl c); c_f := snd (concl c) |}.

Lemma to_expr_cond : forall n c, is_cond (to_expr n c) = true.
Proof. intros n [eq sw|c|c neq b cf]; reflexivity. Qed.

Lemma shape_cond : forall n c r, shape_of (to_expr n c) r = ShCond r.
Proof. intros n [eq sw|c|c neq b cf] r; reflexivity. Qed.

Lemma wf_to_expr : forall n c, wf_expr (to_expr n c).
Proof.
  intros n c. induction c as [eq sw|c IH|c IH neq b cf]; cbn [to_expr wf_expr].
  - destruct sw; cbn; repeat split; auto.
  - exact IH.
  - destruct cf; cbn [wf_expr]; split; auto; exact I.
Qed.

Lemma flat_boolconst : forall (neq b : bool) r va vb,
  flat (if neq then NEQ else EQL) (ShCond r) va (ShBool b) vb = (if Bool.eqb (negb neq) b then r else swap_res r) /\
  flat (if neq then NEQ else EQL) (ShBool b) vb (ShCond r) va = (if Bool.eqb (negb neq) b then r else swap_res r).
Proof. intros [|] [|] [[[t f] s]|] va vb; split; reflexivity. Qed.

(* AddNilCheck recognises every such condition; its conclusions do not depend on the pointer's value, its subject is the pointer *)
Lemma check_ncond : forall c, exists t f, forall n, checke (to_expr n c) = Some (t, f, pv n).
Proof.
  induction c as [eq sw|c [t [f IH]]|c [t [f IH]] neq b cf].
  - destruct eq, sw; eexists; eexists; intros [|]; reflexivity.
  - exists f, t. intros n. cbn [to_expr]. now rewrite checke_not, IH.
  - exists (if Bool.eqb (negb neq) b then t else f), (if Bool.eqb (negb neq) b then f else t). intros n.
    pose proof (flat_boolconst neq b (Some (t, f, pv n)) (ev (to_expr n c)) (b2z b)) as [F1 F2].
    cbn [to_expr]. destruct cf; rewrite checke_cmp, IH, shape_cond; cbn [shape_of ev];
      [rewrite F2|rewrite F1]; destruct (Bool.eqb _ _); reflexivity.
Qed.

Lemma pv_nonnil : forall n, subject_nonnil (pv n) -> n = false.
Proof. intros [|] H; [now destruct H|reflexivity]. Qed.

Theorem cond_of_ok : forall c, cond1_ok (cond_of c).
Proof.
  intros c. destruct (check_ncond c) as [t [f H]].
  assert (C : concl c = (t, f)) by (unfold concl; rewrite (H true); reflexivity).
  assert (A : forall n, (t = true -> ev (to_expr n c) = 1 -> n = false) /\ (f = true -> ev (to_expr n c) = 0 -> n = false)).
  { intros n. destruct (branch_attribution_nested _ t f (pv n) (wf_to_expr n c) (H n)) as [A B].
    split; intros T E; apply pv_nonnil; auto. }
  unfold cond1_ok, cond_of, truth; cbn [c_truth c_t c_f]. rewrite C; cbn [fst snd].
  split; intros T n E.
  - apply (proj1 (A n) T), Z.eqb_eq, E.
  - apply (proj2 (A n) T). destruct (ev_cond _ (to_expr_cond n c)) as [Z0|Z1]; [exact Z0|]. rewrite Z1 in E. discriminate.
Qed.

Fixpoint nested_conds (e : sexp) : Prop :=
  match e with
  | SCond _ k => exists c, k = cond_of c
  | SAnd x y | SOr x y => nested_conds x /\ nested_conds y
  | _ => True
  end.

Lemma nested_conds_ok : forall e, nested_conds e -> conds_ok e.
Proof.
  induction e as [v k|i|v l|x IHx y IHy|x IHx y IHy]; cbn; intros H; auto.
  - destruct H as [c ->]. apply cond_of_ok.
  - destruct H; split; auto.
  - destruct H; split; auto.
Qed.

Theorem short_circuit_sound_nested : forall e nilv orc l,
  left_pure e = true -> nested_conds e -> eval nilv orc e = Panic l -> In l (reported e).
Proof. intros e nilv orc l P K E. exact (short_circuit_sound e nilv orc l P (nested_conds_ok e K) E). Qed.

Lemma atomic_is_nested : forall eq, (forall n, c_truth (cond_of (NAtom eq false)) n = c_truth (atomic eq) n) /\
  c_t (cond_of (NAtom eq false)) = c_t (atomic eq) /\ c_f (cond_of (NAtom eq false)) = c_f (atomic eq).
Proof. intros [|]; repeat split; intros [|]; reflexivity. Qed.

Example nested_guard_silent :
  (* ((p != nil) == true) && !(p == nil) && p.f == 1 : silent;   (false == (p != nil)) || p.f == 1 : silent;
     ((p == nil) != true) || p.f == 1 : the dereference runs when p IS nil: reported *)
  reported (SAnd (SAnd (SCond 0 (cond_of (NEqB (NAtom false false) false true false))) (SCond 0 (cond_of (NNot (NAtom true false))))) (SDer 0 1)) = [] /\
  reported (SOr (SCond 0 (cond_of (NEqB (NAtom false false) false false true))) (SDer 0 1)) = [] /\
  reported (SOr (SCond 0 (cond_of (NEqB (NAtom true false) true true false))) (SDer 0 1)) = [1%nat].
Proof. repeat split. Qed.
