(* Theorems about M2: sorting, nolint filtering, grouping. *)
From Coq Require Import List Bool PeanoNat Permutation.
From NM Require Import Diag.
From NP Require Import ListFacts.
Import ListNotations.

(* key equality is decided correctly: each test is a conjunction of tests that decide one component each *)
Lemma andb_iff {p q} {P Q : Prop} : (p = true <-> P) -> (q = true <-> Q) -> (p && q = true <-> P /\ Q).
Proof. intros <- <-. apply andb_true_iff. Qed.

Lemma list_eqb_eq {A} (eqb : A -> A -> bool) (H : forall x y, eqb x y = true <-> x = y) l l' :
  list_eqb eqb l l' = true <-> l = l'.
Proof.
  revert l'. induction l as [|x l IH]; destruct l' as [|y l']; cbn; [tauto|split; discriminate..|].
  eapply iff_trans; [exact (andb_iff (H x y) (IH l'))|]. split; [intros [-> ->]; reflexivity|intros [= -> ->]; auto].
Qed.

Lemma some_eq_iff {A} (x y : A) : Some x = Some y <-> x = y.
Proof. split; congruence. Qed.

Lemma opt3_eqb_eq a b : opt3_eqb a b = true <-> a = b.
Proof.
  destruct a as [[[x y] z]|], b as [[[x' y'] z']|]; cbn; [|split; discriminate..|tauto].
  rewrite some_eq_iff, !pair_equal_spec. exact (andb_iff (andb_iff (Nat.eqb_eq x x') (Nat.eqb_eq y y')) (Nat.eqb_eq z z')).
Qed.

Lemma optnat_eqb_eq a b : optnat_eqb a b = true <-> a = b.
Proof.
  destruct a as [x|], b as [y|]; cbn; [|split; discriminate..|tauto]. rewrite some_eq_iff. apply Nat.eqb_eq.
Qed.

Lemma nk_eqb_eq a b : nk_eqb a b = true <-> a = b.
Proof.
  destruct a as [[[[a1 a2] a3] a4] a5], b as [[[[b1 b2] b3] b4] b5]. cbn. rewrite !pair_equal_spec.
  exact (andb_iff (andb_iff (andb_iff (andb_iff
    (opt3_eqb_eq a1 b1) (Nat.eqb_eq a2 b2)) (Nat.eqb_eq a3 b3)) (opt3_eqb_eq a4 b4)) (opt3_eqb_eq a5 b5)).
Qed.

Lemma gkey_eqb_eq a b : gkey_eqb a b = true <-> a = b.
Proof.
  destruct a as [l|p r|f sr p c], b as [l'|p' r'|f' sr' p' c']; cbn [gkey_eqb]; try (split; discriminate).
  - eapply iff_trans; [apply (list_eqb_eq nk_eqb nk_eqb_eq)|]. split; congruence.
  - eapply iff_trans; [exact (andb_iff (opt3_eqb_eq (Some p) (Some p')) (Nat.eqb_eq r r'))|].
    split; [intros [[= ->] ->]; reflexivity|intros [= -> ->]; auto].
  - eapply iff_trans; [exact (andb_iff (andb_iff (andb_iff
      (optnat_eqb_eq f f') (opt3_eqb_eq sr sr')) (Nat.eqb_eq p p')) (Nat.eqb_eq c c'))|].
    split; [intros [[[-> ->] ->] ->]; reflexivity|intros [= -> -> -> ->]; auto].
Qed.

Lemma add_to_group_members gs c :
  Permutation (flat_map members (add_to_group gs c)) (flat_map members gs ++ [c]).
Proof.
  induction gs as [|g gs IH]; cbn; auto.
  destruct (gkey_eqb (group_key (d_head g)) (group_key c)); cbn.
  - apply perm_skip.
    rewrite <- !app_assoc. apply Permutation_app_head. apply Permutation_app_comm.
  - apply perm_skip. rewrite <- app_assoc. apply Permutation_app_head. exact IH.
Qed.

Lemma fold_group_members cs : forall gs,
  Permutation (flat_map members (fold_left add_to_group cs gs)) (flat_map members gs ++ cs).
Proof.
  induction cs as [|c cs IH]; intros gs; cbn.
  - now rewrite app_nil_r.
  - eapply perm_trans; [apply IH|].
    eapply perm_trans; [apply Permutation_app_tail; apply add_to_group_members|].
    rewrite <- app_assoc. reflexivity.
Qed.

Theorem group_partition cs : Permutation (flat_map members (group_conflicts cs)) cs.
Proof. unfold group_conflicts. apply (fold_group_members cs []). Qed.

Lemma no_grouping_members cs : flat_map members (no_grouping cs) = cs.
Proof. induction cs as [|c cs IH]; cbn; auto. f_equal. exact IH. Qed.

Lemma no_grouping_heads cs : map d_head (no_grouping cs) = cs.
Proof. unfold no_grouping. rewrite map_map. apply map_id. Qed.

Definition group_ok (g : diag) : Prop := forall c, In c (d_similar g) -> group_key c = group_key (d_head g).

Lemma add_to_group_ok gs c : Forall group_ok gs -> Forall group_ok (add_to_group gs c).
Proof.
  induction gs as [|g gs IH]; intros H; cbn.
  - constructor; auto. intros x [].
  - inversion H as [|? ? Hg Hgs]; subst.
    destruct (gkey_eqb (group_key (d_head g)) (group_key c)) eqn:E.
    + constructor; auto. intros x Hx. cbn in *. apply in_app_or in Hx. destruct Hx as [Hx|[<-|[]]]; auto.
      symmetry. now apply gkey_eqb_eq.
    + constructor; auto.
Qed.

Theorem group_same_source cs : Forall group_ok (group_conflicts cs).
Proof. unfold group_conflicts. apply fold_left_invariant; [constructor|]. intros gs c _. apply add_to_group_ok. Qed.

Definition heads_distinct (gs : list diag) : Prop :=
  NoDup (map (fun g => group_key (d_head g)) gs).

Lemma add_to_group_heads gs c :
  map (fun g => group_key (d_head g)) (add_to_group gs c) =
  if existsb (fun g => gkey_eqb (group_key (d_head g)) (group_key c)) gs
  then map (fun g => group_key (d_head g)) gs
  else map (fun g => group_key (d_head g)) gs ++ [group_key c].
Proof.
  induction gs as [|g gs IH]; cbn; auto.
  destruct (gkey_eqb (group_key (d_head g)) (group_key c)) eqn:E; cbn; auto.
  rewrite IH. destruct (existsb _ gs); auto.
Qed.

Lemma add_to_group_distinct gs c : heads_distinct gs -> heads_distinct (add_to_group gs c).
Proof.
  unfold heads_distinct. intros H. rewrite add_to_group_heads.
  destruct (existsb (fun g => gkey_eqb (group_key (d_head g)) (group_key c)) gs) eqn:E; [exact H|].
  apply NoDup_app_single; [exact H|]. intros Hin. apply in_map_iff in Hin. destruct Hin as [g [Hk Hg]].
  apply (proj1 (existsb_false _ _) E) in Hg. apply gkey_eqb_eq in Hk. congruence.
Qed.

Theorem group_heads_distinct cs : heads_distinct (group_conflicts cs).
Proof. unfold group_conflicts. apply fold_left_invariant; [constructor|]. intros gs c _. apply add_to_group_distinct. Qed.

Lemma insert_c_perm x l : Permutation (insert_c x l) (x :: l).
Proof.
  induction l as [|y l IH]; cbn; auto. destruct (conflict_leb x y); auto.
  eapply perm_trans; [apply perm_skip; apply IH | apply perm_swap].
Qed.

Lemma sort_conflicts_perm l : Permutation (sort_conflicts l) l.
Proof.
  induction l as [|x l IH]; cbn; auto.
  eapply perm_trans; [apply insert_c_perm | now apply perm_skip].
Qed.

Lemma filter_perm {A} (f : A -> bool) l l' : Permutation l l' -> Permutation (filter f l) (filter f l').
Proof.
  induction 1; cbn; auto.
  - destruct (f x); auto.
  - destruct (f x), (f y); auto. apply perm_swap.
  - eapply perm_trans; eauto.
Qed.

(* the conflicts that are shown (as a diagnostic position or in an "other places" list) are exactly the
   conflicts that are not suppressed -- for both values of the grouping flag *)
Theorem diagnostics_exact grouping rs et cs :
  Permutation (flat_map members (diagnostics grouping rs et cs))
              (filter (fun c => negb (suppressed rs et c)) cs).
Proof.
  unfold diagnostics. destruct grouping.
  - eapply perm_trans; [apply group_partition|]. apply filter_perm. apply sort_conflicts_perm.
  - rewrite no_grouping_members. apply filter_perm. apply sort_conflicts_perm.
Qed.

Theorem grouping_loses_nothing rs et cs :
  Permutation (flat_map members (diagnostics true rs et cs)) (map d_head (diagnostics false rs et cs)).
Proof. unfold diagnostics. rewrite no_grouping_heads. apply group_partition. Qed.

(* a nolint range removes exactly the conflicts reported on its lines, whatever else is present *)
Theorem nolint_exact grouping rs et cs c :
  In c (flat_map members (diagnostics grouping rs et cs)) <-> (In c cs /\ suppressed rs et c = false).
Proof.
  pose proof (diagnostics_exact grouping rs et cs) as P.
  rewrite <- negb_true_iff, <- (filter_In (fun c => negb (suppressed rs et c))).
  split; apply Permutation_in; [exact P|symmetry; exact P].
Qed.

Theorem count_matches_list d : shown_count d = length (shown_places d).
Proof. unfold shown_count, shown_places. now rewrite map_length. Qed.

(* grouped diagnostics: everyone in a group has the head's nil source, different diagnostics have different ones *)
Theorem diagnostics_groups rs et cs :
  Forall group_ok (diagnostics true rs et cs) /\ heads_distinct (diagnostics true rs et cs).
Proof. unfold diagnostics. split; [apply group_same_source | apply group_heads_distinct]. Qed.

(* non-vacuity: three conflicts with one nil source, a nolint range on the first one's line *)
Definition mkpos f l := {| p_file := f; p_line := l; p_col := 1; p_off := l * 10; p_valid := true |}.
Definition nopos := {| p_file := 0; p_line := 0; p_col := 0; p_off := 0; p_valid := false |}.
Definition src_node := {| n_ppos := mkpos 1 3; n_cpos := mkpos 1 3; n_prepr := 7; n_crepr := 8; n_site := mkpos 1 3 |}.
Definition use_node l := {| n_ppos := nopos; n_cpos := mkpos 1 l; n_prepr := 9; n_crepr := 10; n_site := nopos |}.
Definition ex_conflict i l := {| c_id := i; c_pos := mkpos 1 l; c_nil := [src_node]; c_nonnil := [use_node l]; c_func := None; c_test := false; c_src := nopos |}.
Definition ex_cs := [ex_conflict 1 10; ex_conflict 2 20; ex_conflict 3 30].
Example ex_nolint_first :
  map (fun d => (c_id (d_head d), map c_id (d_similar d))) (diagnostics true [{| r_file := 1; r_from := 10; r_to := 10 |}] false ex_cs)
  = [(2, [3])].
Proof. reflexivity. Qed.

(* the key separates what the printed positions cannot (repairs of F56, F57) *)
Lemma group_key_path c : c_nil c <> [] -> group_key c = KPath (map node_key (c_nil c)).
Proof. unfold group_key. destruct (c_nil c); [congruence|reflexivity]. Qed.

Lemma group_key_path_inv c l : group_key c = KPath l -> l = map node_key (c_nil c).
Proof.
  unfold group_key. destruct (c_nil c) as [|n l']; [|now intros [= <-]].
  destruct (c_nonnil c) as [|p [|q r]]; [now intros [= <-]| |now intros [= <-]].
  destruct (pos_key (n_ppos p)); discriminate.
Qed.

Lemma same_key_same_sites c c' : c_nil c <> [] -> group_key c = group_key c' ->
  map (fun n => pos_key (n_site n)) (c_nil c) = map (fun n => pos_key (n_site n)) (c_nil c').
Proof.
  intros NE H. rewrite (group_key_path c NE) in H. symmetry in H. apply group_key_path_inv in H.
  (* the site is the last component of the node key *)
  change (fun n => pos_key (n_site n)) with (fun n => snd (node_key n)). now rewrite <- !(map_map node_key snd), H.
Qed.

Lemma same_key_same_source c c' p p' : c_nil c = [] -> c_nonnil c = [p] -> pos_key (n_ppos p) = None ->
  c_nil c' = [] -> c_nonnil c' = [p'] -> group_key c = group_key c' -> pos_key (c_src c) = pos_key (c_src c').
Proof.
  intros E1 E2 E3 E1' E2' H. unfold group_key in H. rewrite E1, E2, E3, E1', E2' in H.
  destruct (pos_key (n_ppos p')); [discriminate|]. now injection H.
Qed.

Example lookalike_files_not_grouped :
  let n f := {| n_ppos := mkpos 2 3; n_cpos := mkpos 2 3; n_prepr := 7; n_crepr := 8; n_site := mkpos f 3 |} in
  let c i f l := {| c_id := i; c_pos := mkpos 1 l; c_nil := [n f]; c_nonnil := [use_node l]; c_func := None; c_test := false; c_src := nopos |} in
  gkey_eqb (group_key (c 1 2 10)) (group_key (c 2 3 11)) = false /\ gkey_eqb (group_key (c 1 2 10)) (group_key (c 3 2 12)) = true.
Proof. vm_compute. split; reflexivity. Qed.
