(* Termination of the engine on well-formed trigger sets: a lexicographic measure
   (number of undetermined sites of a finite universe, total weight of the work stack). *)
From Coq Require Import List PeanoNat Lia Wf_nat.
From NM Require Import Engine EngineSpec.
From NP Require Import ListFacts EngineBasics EngineStep EngineMain.
Import ListNotations.

Definition sites_of_kind (k : kind) : list site := match k with KCond s => [s] | _ => [] end.
Definition sites_of_trigger (t : trigger) : list site := sites_of_kind (t_prod t) ++ sites_of_kind (t_cons t).
Definition sites_of_item (it : item) : list site :=
  match it with
  | ISite s _ => [s]
  | ITrig t => sites_of_trigger t
  | IImpl p c _ => [p; c]
  end.

(* the consumer site of a controlled trigger never controls a trigger itself: in NilAway controllers are
   call-site parameter sites and controlled consumers are call-site result sites *)
Definition wf_ctl (l : list trigger) : Prop :=
  forall t c, In t l -> t_cons t = KCond c -> controlled_by l c = [].
Definition wf_triggers (ts : list trigger) : Prop := wf_ctl (filter controlled ts).

Lemma wf_uncontrolled : forall ts, filter controlled ts = [] -> wf_triggers ts.
Proof. intros ts E. unfold wf_triggers. rewrite E. intros t c H. destruct H. Qed.

Record closed (U : list site) (st : state) (work : list item) : Prop := {
  cl_work : forall it s, In it work -> In s (sites_of_item it) -> In s U;
  cl_ctl : forall t s, In t (ctl st) -> In s (sites_of_trigger t) -> In s U;
  cl_outs : forall s x t, In (x, t) (outs_l (mp st) s) -> In x U;
  cl_ins : forall s x t, In (x, t) (ins_l (mp st) s) -> In x U;
  cl_dom : forall s, lookup (mp st) s <> None -> In s U }.

Definition sites_in (U : list site) (it : item) : Prop := forall s, In s (sites_of_item it) -> In s U.
Definition map_in (U : list site) (m : list (site * ival)) : Prop :=
  (forall s x t, In (x, t) (outs_l m s) -> In x U) /\ (forall s x t, In (x, t) (ins_l m s) -> In x U) /\
  (forall s, lookup m s <> None -> In s U).

Lemma closed_parts U st work :
  closed U st work <-> Forall (sites_in U) work /\ Forall (fun t => sites_in U (ITrig t)) (ctl st) /\ map_in U (mp st).
Proof.
  rewrite !Forall_forall. split.
  - intros [Hw Hc Ho Hi Hd]. repeat split; auto; intros x Hx s Hs; eauto.
  - intros [Hw [Hc [Ho [Hi Hd]]]]. constructor; auto; intros; [eapply Hw | eapply (Hc t)]; eauto.
Qed.

Lemma map_in_store_det U m s e : map_in U m -> In s U -> map_in U (store m s (Det e)).
Proof.
  intros [Ho [Hi Hd]] Hs. repeat split.
  - intros s0 x t. rewrite outs_store_det. destruct (Nat.eqb s s0); [intros []|apply Ho].
  - intros s0 x t. rewrite ins_store_det. destruct (Nat.eqb s s0); [intros []|apply Hi].
  - intros s0. rewrite lookup_store. destruct (Nat.eqb_spec s s0) as [<-|]; auto.
Qed.

Lemma map_in_store_impl U m p c t :
  map_in U m -> det_l m p = None -> det_l m c = None -> In p U -> In c U -> map_in U (store_impl m p c t).
Proof.
  intros [Ho [Hi Hd]] Dp Dc Hp Hc. repeat split.
  - intros s x t0 H. apply store_impl_outs in H; auto. destruct H as [H|[_ [-> _]]]; eauto.
  - intros s x t0 H. apply store_impl_ins in H; auto. destruct H as [H|[_ [-> _]]]; eauto.
  - intros s H. apply store_impl_dom in H. destruct H as [->|[->|H]]; auto.
Qed.

Lemma activate_in U st s b : Forall (fun t => sites_in U (ITrig t)) (ctl st) -> Forall (sites_in U) (activate st s b).
Proof.
  rewrite !Forall_forall. intros Hc it Hin. apply In_activate in Hin. destruct Hin as [_ [t [-> [Ht _]]]]. auto.
Qed.

Lemma propagate_in U m s e : map_in U m -> Forall (sites_in U) (propagate e (outs_l m s) (ins_l m s)).
Proof.
  intros [Ho [Hi _]]. apply Forall_forall. intros it Hin. apply In_propagate in Hin.
  destruct Hin as [x [t [-> Hin]]]. intros y [<-|[]]. destruct (eval_expl e); eauto.
Qed.

Lemma item_of_atom_in U t : sites_in U (ITrig t) -> Forall (sites_in U) (flat_map (item_of_atom (t_id t)) (atoms_of_trigger t)).
Proof.
  unfold sites_in, atoms_of_trigger; cbn. unfold sites_of_trigger. intros H.
  destruct (t_prod t), (t_cons t); cbn in *; repeat (apply Forall_cons || apply Forall_nil); cbn; auto.
Qed.

Lemma closed_step U st it rest st1 new :
  closed U st (it :: rest) -> step st it = (st1, new) -> closed U st1 (new ++ rest).
Proof.
  intros Hcl Hs. apply closed_parts in Hcl. destruct Hcl as [Hw [Hc Hm]].
  apply Forall_cons_iff in Hw. destruct Hw as [Hit Hw].
  apply closed_parts. rewrite (step_ctl _ _ _ _ Hs), Forall_app.
  destruct (step_Step _ _ _ _ Hs); (split; [split; [|exact Hw]|split]); cbn; auto.
  - now apply activate_in.
  - apply Forall_app. split; [now apply activate_in | now apply propagate_in].
  - apply map_in_store_det; auto. apply Hit. now left.
  - now apply item_of_atom_in.
  - repeat constructor. intros s [<-|[]]. apply Hit. cbn; auto.
  - repeat constructor. intros s [<-|[]]. apply Hit. cbn; auto.
  - apply map_in_store_impl; auto; apply Hit; cbn; auto.
Qed.

Lemma Run_closed U st work st' : Run st work st' -> closed U st work -> closed U st' [].
Proof. apply (Run_invariant (closed U)). intros; eapply closed_step; eauto. Qed.

Definition undetb (st : state) (s : site) : bool := match dv st s with None => true | Some _ => false end.
Definition ucount (U : list site) (st : state) : nat := length (filter (undetb st) U).

Definition nctl (l : list trigger) (c : site) : nat := length (controlled_by l c).
Definition wS (l : list trigger) (c : site) : nat := 1 + 3 * nctl l c.
Definition weight (l : list trigger) (it : item) : nat :=
  match it with
  | ISite s e => if eval_expl e then wS l s else 1
  | IImpl p c _ => 1 + wS l c
  | ITrig t =>
      match t_prod t, t_cons t with
      | KAlways, KCond c => 1 + wS l c
      | KCond _, KAlways => 2
      | KCond _, KCond c => 2 + wS l c
      | _, _ => 1
      end
  end.
Definition W (l : list trigger) (work : list item) : nat := list_sum (map (weight l) work).

Lemma W_app l a b : W l (a ++ b) = W l a + W l b.
Proof. unfold W. now rewrite map_app, list_sum_app. Qed.

Lemma ucount_mono U st it st1 new : step st it = (st1, new) -> ucount U st1 <= ucount U st.
Proof.
  intros Hs. apply filter_length_le. intros x _. unfold undetb.
  destruct (dv st x) eqn:D; auto. now rewrite (step_dv_mono _ _ _ _ _ _ Hs D).
Qed.

Lemma ucount_dec U st it st1 new s : step st it = (st1, new) -> In s U -> dv st s = None -> dv st1 s <> None ->
  ucount U st1 < ucount U st.
Proof.
  intros Hs Hin D0 D1. apply filter_length_lt with (y := s); auto.
  - intros x _. unfold undetb. destruct (dv st x) eqn:D; auto. now rewrite (step_dv_mono _ _ _ _ _ _ Hs D).
  - unfold undetb. destruct (dv st1 s); congruence.
  - unfold undetb. now rewrite D0.
Qed.

Lemma list_sum_map_le {A} (f : A -> nat) k l : (forall x, In x l -> f x <= k) -> list_sum (map f l) <= k * length l.
Proof.
  unfold list_sum. induction l as [|x l IH]; cbn; intros H; [lia|]. rewrite Nat.mul_succ_r.
  specialize (H x (or_introl eq_refl)) as Hx. specialize (IH (fun y Hy => H y (or_intror Hy))). lia.
Qed.

(* an activated trigger weighs at most 3: by wf_ctl its consumer controls nothing *)
Lemma W_activate st s : wf_ctl (ctl st) -> W (ctl st) (activate st s true) <= 3 * nctl (ctl st) s.
Proof.
  intros Hwf. unfold W, activate, nctl. rewrite map_map. apply list_sum_map_le.
  intros t Ht. apply filter_In in Ht. destruct Ht as [Ht _]. cbn.
  destruct (t_prod t), (t_cons t) as [| |c] eqn:Ec; try lia; unfold wS, nctl; rewrite (Hwf t c Ht Ec); cbn; lia.
Qed.

Lemma step_measure U st it rest st1 new :
  closed U st (it :: rest) -> wf_ctl (ctl st) -> step st it = (st1, new) ->
  ucount U st1 < ucount U st \/ (ucount U st1 <= ucount U st /\ W (ctl st) (new ++ rest) < W (ctl st) (it :: rest)).
Proof.
  intros Hcl Hwf Hs. pose proof (ucount_mono U _ _ _ _ Hs) as Hmono.
  set (l := ctl st) in *.
  assert (Wc : W l (it :: rest) = weight l it + W l rest) by reflexivity.
  rewrite W_app, Wc.
  destruct (step_Step _ _ _ _ Hs) as [s e e' D E|s e e' D E|s e D|t D|t D|p c t e D E|p c t e D E|p c t e Dp D E|p c t e Dp D E|p c t Dp Dc].
  3: { left. eapply ucount_dec; eauto.
       - eapply (cl_work _ _ _ Hcl); [left; reflexivity|cbn; auto].
       - now apply dv_undet.
       - rewrite dv_set_mp_store_det, Nat.eqb_refl. discriminate. }
  all: right; split; auto; apply Nat.add_lt_mono_r; unfold W; cbn -[wS]; rewrite ?E; unfold wS; try lia.
  - destruct (eval_expl e); lia.
  - destruct (eval_expl e) eqn:Ev; [|cbn; lia]. pose proof (W_activate st s Hwf) as Ha. fold l in Ha. unfold W in *. lia.
  - destruct (t_prod t), (t_cons t); cbn; lia.
  - unfold atoms_of_trigger. destruct (t_prod t), (t_cons t); cbn; lia.
Qed.

Lemma terminates_aux U : forall n m st work,
  ucount U st <= n -> W (ctl st) work <= m -> closed U st work -> wf_ctl (ctl st) -> exists st', Run st work st'.
Proof.
  induction n as [n IHn] using lt_wf_ind. induction m as [m IHm] using lt_wf_ind.
  intros st work Hn Hm Hcl Hwf. destruct work as [|it rest]; [exists st; constructor|].
  destruct (step st it) as [st1 new] eqn:Hs.
  pose proof (closed_step _ _ _ _ _ _ Hcl Hs) as Hcl1.
  pose proof (step_ctl _ _ _ _ Hs) as Ectl.
  assert (Hwf1 : wf_ctl (ctl st1)) by now rewrite Ectl.
  destruct (step_measure _ _ _ _ _ _ Hcl Hwf Hs) as [Hlt|[Hle Hlt]].
  - destruct (IHn (ucount U st1) ltac:(lia) (W (ctl st1) (new ++ rest)) st1 (new ++ rest)) as [st' R]; auto.
    exists st'. econstructor; eauto.
  - destruct (IHm (W (ctl st) (new ++ rest)) ltac:(lia) st1 (new ++ rest)) as [st' R]; auto; try lia.
    + rewrite Ectl. lia.
    + exists st'. econstructor; eauto.
Qed.

Lemma terminates U st work : closed U st work -> wf_ctl (ctl st) -> exists st', Run st work st'.
Proof. intros. eapply terminates_aux; eauto. Qed.

Definition pkg_universe (facts : list (nat * fact)) (annots : list (site * bool)) (ts : list trigger) : list site :=
  flat_map sites_of_item (upstream_items facts ++ annot_items annots ++ map ITrig ts).

Lemma closed_phase U st st' w :
  closed U st [] -> mp st' = mp st -> Forall (sites_in U) w -> Forall (fun t => sites_in U (ITrig t)) (ctl st') ->
  wf_ctl (ctl st') -> exists st'', Run st' w st'' /\ closed U st'' [].
Proof.
  intros Hcl Em Hw Hc Hwf. apply closed_parts in Hcl. destruct Hcl as [_ [_ Hm]].
  assert (Hcl' : closed U st' w) by (apply closed_parts; rewrite Em; auto).
  destruct (terminates U _ _ Hcl' Hwf) as [st'' R]. exists st''. split; auto. eapply Run_closed; eauto.
Qed.

Theorem engine_terminates facts annots ts : wf_triggers ts -> exists st, pkg_run facts annots ts st.
Proof.
  intros Hwf. set (U := pkg_universe facts annots ts).
  assert (HU : forall it, In it (upstream_items facts ++ annot_items annots ++ map ITrig ts) -> sites_in U it).
  { intros it Hit s Hs. apply in_flat_map. eauto. }
  assert (UT : forall t, In t ts -> sites_in U (ITrig t)).
  { intros t Ht. apply HU. rewrite !in_app_iff. auto using in_map. }
  assert (C0 : closed U init_state []) by (constructor; cbn; try (intros; contradiction)).
  (* the items of the facts and of the annotations are run as one work list, and the run is split afterwards *)
  destruct (closed_phase U init_state init_state (upstream_items facts ++ annot_items annots) C0 eq_refl) as [st1 [RAB CB]].
  { apply Forall_forall. intros it Hit. apply HU. rewrite app_assoc. apply in_or_app. now left. }
  { constructor. }
  { intros t c []. }
  destruct (Run_app _ _ _ _ RAB) as [st0 [RA RB]].
  destruct (closed_phase U st1 (fst (build_pkg_work st1 ts)) (snd (build_pkg_work st1 ts)) CB eq_refl) as [st2 [RC _]]; auto.
  - apply Forall_forall. intros it Hit. rewrite build_pkg_work_more in Hit. apply In_more_work in Hit.
    destruct Hit as [t [-> [[Ht _]|[k [_ [_ [Ht _]]]]]]]; [auto|]. apply filter_In in Ht. apply UT, Ht.
  - apply Forall_forall. intros t Ht. apply filter_In in Ht. apply UT, Ht.
  - exists st2, st0, st1. auto.
Qed.

Definition ex_facts : list (nat * fact) := [(0, [(1, Undet [] [(2, 50)]); (2, Undet [(1, 50)] [])])].
Definition ex_annots : list (site * bool) := [(6, false)].
Definition ex_ts : list trigger :=
  [ {| t_id := 100; t_prod := KAlways; t_cons := KCond 1; t_ctrl := None |};      (* nil flows into site 1 *)
    {| t_id := 101; t_prod := KCond 2; t_cons := KCond 3; t_ctrl := None |};      (* 2 -> 3 (3 is a call-site param) *)
    {| t_id := 102; t_prod := KCond 4; t_cons := KCond 5; t_ctrl := Some 3 |};    (* 4 -> 5, active once 3 is nilable *)
    {| t_id := 103; t_prod := KAlways; t_cons := KCond 4; t_ctrl := Some 3 |};    (* nil -> 4, same guard *)
    {| t_id := 104; t_prod := KCond 5; t_cons := KCond 6; t_ctrl := None |} ].    (* 5 -> 6, and 6 is annotated nonnil *)

Lemma ex_runs : exists st, pkg_run ex_facts ex_annots ex_ts st /\ conflicts st <> [] /\ wf_triggers ex_ts.
Proof.
  assert (Hwf : wf_triggers ex_ts).
  { intros t c Ht Hc. cbn in Ht. destruct Ht as [<-|[<-|[]]]; cbn in Hc; inversion Hc; subst; reflexivity. }
  destruct (engine_terminates ex_facts ex_annots ex_ts Hwf) as [st R].
  exists st. split; auto. split; auto.
  apply (engine_conflict_iff_flow _ _ _ _ R).
  right. exists 6. split.
  - assert (N1 : nilr (pkg_csys ex_facts ex_annots ex_ts) 1) by (apply nr_src; cbn; auto 10).
    assert (N2 : nilr (pkg_csys ex_facts ex_annots ex_ts) 2) by (apply nr_edge with 1 50; cbn; auto 10).
    assert (N3 : nilr (pkg_csys ex_facts ex_annots ex_ts) 3) by (apply nr_edge with 2 101; cbn; auto 10).
    assert (N4 : nilr (pkg_csys ex_facts ex_annots ex_ts) 4) by (apply nr_csrc with 3; cbn; auto 10).
    assert (N5 : nilr (pkg_csys ex_facts ex_annots ex_ts) 5) by (apply nr_cedge with 3 4 102; cbn; auto 10).
    apply nr_edge with 5 104; cbn; auto 10.
  - apply nn_snk. left. cbn. auto 10.
Qed.
