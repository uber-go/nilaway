(* Package-level theorems about the engine: soundness, completeness and verdict characterisation of a package run
   (pkg_run); the executable analyze_pkg performs such a run. *)
From Coq Require Import List Bool.
From NM Require Import Engine EngineSpec.
From NP Require Import ListFacts SpecFacts EngineBasics EngineStep EngineSound EngineComplete.
Import ListNotations.

Definition sat (st : state) (a : atom) : Prop :=
  match a with
  | ASrc s => dv st s = Some true
  | ASnk s => dv st s = Some false
  | AEdge p c _ => (dv st p = Some true -> dv st c = Some true) /\ (dv st c = Some false -> dv st p = Some false)
  | ADirect _ => False
  end.

Lemma Hd_nil_sat st a : Doomed st [] \/ Hd st [] a -> sat st a.
Proof.
  intros [H|[[t [[] _]]|H]]; [exfalso; eapply Doomed_nil; eauto|].
  destruct a as [s|s|p c t|t]; cbn in *; auto; try (now apply Hval_nil).
  destruct H as [[t' []]|[K1 [K2 _]]]. split; intros D; apply Hval_nil; [apply K1 | apply K2]; exact D.
Qed.

Section EndState.
  Variables (C : csys) (st : state).
  Hypothesis HG : Good C st [].
  Hypothesis Hc : conflicts st = [].

  Lemma end_sat a : In a (base C) \/ (exists k, In (k, a) (ctld C) /\ dv st k = Some true) -> sat st a.
  Proof. destruct (HG Hc) as [Hb Hk]. intros [Hin|[k [Hin D]]]; apply Hd_nil_sat; eauto. Qed.

  Lemma end_nilr s : nilr C s -> dv st s = Some true.
  Proof.
    revert s. apply (nilr_act_ind C (fun s => dv st s = Some true)).
    - intros s0 H. exact (end_sat (ASrc s0) H).
    - intros p c t H. exact (proj1 (end_sat (AEdge p c t) H)).
  Qed.

  Lemma end_act a : act C a -> sat st a.
  Proof. intros [Hin|[k [Hin Hn]]]; apply end_sat; [left | right; exists k]; auto using end_nilr. Qed.

  Lemma end_nonr s : nonr C s -> dv st s = Some false.
  Proof.
    induction 1 as [s Ha | p c t Ha Hc' IH].
    - apply (end_act (ASnk s)); auto.
    - pose proof (end_act _ Ha) as [_ H]. auto.
  Qed.

  Lemma end_no_flow : ~ has_flow C.
  Proof.
    intros [[t Ha]|[s [Hn Hm]]].
    - apply (end_act _ Ha).
    - pose proof (end_nilr _ Hn). pose proof (end_nonr _ Hm). congruence.
  Qed.
End EndState.

(* soundness and completeness together; a state that satisfies both with no work left is a correct end state for C,
   whatever run produced it *)
Definition Inv (C : csys) (st : state) (w : list item) : Prop := J C st w /\ Good C st w /\ Linked C (ctl st).

Lemma Inv_step C st it rest st1 new : Inv C st (it :: rest) -> step st it = (st1, new) -> Inv C st1 (new ++ rest).
Proof.
  intros [HJ [HG HL]] Hs. split; [|split].
  - eapply J_step; eauto.
  - eapply Good_step; eauto.
  - now rewrite (step_ctl _ _ _ _ Hs).
Qed.

Lemma Inv_run C st w st' : Run st w st' -> Inv C st w -> Inv C st' [].
Proof. apply (Run_invariant (Inv C)), Inv_step. Qed.

Lemma Inv_init : Inv (csys_of [] [] []) init_state [].
Proof.
  split; [|split].
  - constructor; cbn; try (intros; contradiction); discriminate.
  - intros _. constructor; [intros a [] | intros k a []].
  - intros k a [].
Qed.

Section Correct.
  Variables (C : csys) (st : state).
  Hypothesis H : Inv C st [].

  Lemma Correct_sound c : In c (conflicts st) -> conflict_ok C c.
  Proof. apply (J7 _ _ _ (proj1 H)). Qed.

  Lemma Correct_iff_flow : conflicts st <> [] <-> has_flow C.
  Proof. destruct H as [HJ [HG _]]. split; [eapply J_conflict_flow; eauto | intros HF Hc; exact (end_no_flow C st HG Hc HF)]. Qed.

  Lemma Correct_verdicts : ~ has_flow C ->
    forall s, (dv st s = Some true <-> nilr C s) /\ (dv st s = Some false <-> nonr C s).
  Proof.
    intros NF s. destruct H as [HJ [HG _]].
    assert (Hc : conflicts st = []).
    { destruct (conflicts st) eqn:E; auto. exfalso. apply NF, Correct_iff_flow. congruence. }
    split; split.
    - apply (J_dv C st [] s true HJ).
    - now apply end_nilr.
    - apply (J_dv C st [] s false HJ).
    - now apply end_nonr.
  Qed.
End Correct.

(* a phase boundary: the system grows, the work for what is new is pushed, the table may change *)
Lemma Inv_phase C C' st st' w :
  Inv C st [] ->
  (forall a, In a (base C) -> In a (base C')) -> (forall ka, In ka (ctld C) -> In ka (ctld C')) ->
  mp st' = mp st -> conflicts st' = conflicts st -> ctl_ok C' (ctl st') -> Linked C' (ctl st') ->
  Forall (item_ok C') w ->
  (forall a, In a (base C') -> In a (base C) \/ Hd st' w a) ->
  (forall k a, In (k, a) (ctld C') -> dv st' k = Some true -> In (k, a) (ctld C) \/ Hd st' w a) ->
  Inv C' st' w.
Proof.
  intros [HJ [HG _]] Sb Sk Em Ec H6 HL Hw Hb Hk.
  assert (Hold : forall a, Doomed st [] \/ Hd st [] a -> Hd st' w a).
  { intros a [D|Ha]; [destruct (Doomed_nil _ D)|]. apply (Hd_mono st st' [] w); auto using incl_nil_l. }
  split; [|split]; [| |exact HL].
  - apply (J_mono C C' Sb Sk), J_parts in HJ. destruct HJ as [Hm [_ [_ H7]]].
    apply J_parts. rewrite Em, Ec. auto.
  - intros Hc. rewrite Ec in Hc. destruct (HG Hc) as [Hb1 Hk1]. constructor.
    + intros a Ha. right. destruct (Hb a Ha); auto.
    + intros k a Ha D. right. destruct (Hk k a Ha D) as [Ha'|]; auto.
      apply Hold, (Hk1 k a Ha'). unfold dv in *. now rewrite <- Em.
Qed.

(* work whose items stand for the new unconditional atoms l (imported facts, annotations) *)
Lemma Inv_atoms C C' st w l :
  Inv C st [] -> map atom_of_item w = map Some l ->
  (forall a, In a (base C') <-> In a (base C) \/ In a l) -> ctld C' = ctld C -> Inv C' st w.
Proof.
  intros HI E Hb Hk. pose proof HI as [HJ [_ HL]].
  apply Inv_phase with C st; auto; try (rewrite Hk; auto).
  - intros a Ha. apply Hb. now left.
  - intros t a. rewrite Hk. apply (J6 _ _ _ HJ).
  - intros k a. rewrite Hk. apply HL.
  - apply Forall_forall. intros it Hin. destruct (map_eq_In _ _ _ _ _ E Hin) as [a [Ha Ea]].
    apply item_atom_ok with a; auto. left. apply Hb. now right.
  - intros a Ha. apply Hb in Ha. destruct Ha as [Ha|Ha]; auto. right.
    destruct (map_eq_In _ _ _ _ _ (eq_sym E) Ha) as [it [Hin Ea]]. now apply Hd_atom_of_item with it.
Qed.

Lemma build_pkg_work_more st ts : build_pkg_work st ts = build_pkg_more_work (set_ctl st []) ts.
Proof. reflexivity. Qed.

Lemma In_more_work st ts it :
  In it (snd (build_pkg_more_work st ts)) <->
  exists t, it = ITrig t /\
    ((In t ts /\ t_ctrl t = None) \/
     (exists k, In k (ctrl_sites ts) /\ dv st k = Some true /\ In t (ctl st ++ filter controlled ts) /\ t_ctrl t = Some k)).
Proof.
  cbn. rewrite in_app_iff, in_flat_map, in_map_iff. split.
  - intros [[k [Hk Ht]]|[t [<- Ht]]].
    + apply filter_In in Hk. destruct Hk as [Hk Hd]. apply In_dedup in Hk. apply is_det_true_dv in Hd.
      apply in_map_iff in Ht. destruct Ht as [t [<- Ht]]. apply In_controlled_by in Ht.
      exists t. split; auto. right. exists k. tauto.
    + apply filter_In in Ht. rewrite negb_true_iff, controlled_false in Ht. eauto.
  - intros [t [-> [Ht|[k [Hk [Hd [Ht Hc]]]]]]].
    + right. exists t. split; auto. apply filter_In. now rewrite negb_true_iff, controlled_false.
    + left. exists k. split.
      * apply filter_In. split; [apply In_dedup; auto | now apply is_det_true_dv].
      * apply in_map, In_controlled_by. auto.
Qed.

Lemma ctl_ok_csys_of fs an ts : ctl_ok (csys_of fs an ts) (filter controlled ts).
Proof.
  intros t a Ht Ha. apply filter_In in Ht. destruct Ht as [Ht Hc]. apply controlled_iff in Hc.
  destruct Hc as [k Hk]. exists k. split; auto. apply In_ctld_csys_of. eauto.
Qed.

Lemma Linked_csys_of fs an ts : Linked (csys_of fs an ts) (filter controlled ts).
Proof.
  intros k a Ha. apply In_ctld_csys_of in Ha. destruct Ha as [t [Ht [Hk Ha]]]. exists t. repeat split; auto.
  apply filter_In. split; auto. apply controlled_iff. eauto.
Qed.

Lemma Inv_more_work fs an ts1 ts2 st :
  Inv (csys_of fs an ts1) st [] -> ctl st = filter controlled ts1 ->
  Inv (csys_of fs an (ts1 ++ ts2)) (fst (build_pkg_more_work st ts2)) (snd (build_pkg_more_work st ts2)).
Proof.
  intros HI Hctl. pose proof HI as [HJ _].
  assert (Hl : ctl st ++ filter controlled ts2 = filter controlled (ts1 ++ ts2)) by now rewrite Hctl, filter_app.
  assert (Sb : forall a, In a (base (csys_of fs an ts1)) -> In a (base (csys_of fs an (ts1 ++ ts2)))).
  { intros a Ha. apply csys_of_app_ts_base. now left. }
  assert (Sk : forall ka, In ka (ctld (csys_of fs an ts1)) -> In ka (ctld (csys_of fs an (ts1 ++ ts2)))).
  { intros ka Ha. apply csys_of_app_ts_ctld. now left. }
  apply Inv_phase with (csys_of fs an ts1) st; auto.
  - cbn [fst build_pkg_more_work ctl set_ctl]. rewrite Hl. apply ctl_ok_csys_of.
  - cbn [fst build_pkg_more_work ctl set_ctl]. rewrite Hl. apply Linked_csys_of.
  - apply Forall_forall. intros it Hin. apply In_more_work in Hin.
    destruct Hin as [t [-> [[Ht Hc]|[k [_ [Hd [Ht Hc]]]]]]]; intros a Ha.
    + left. apply In_base_csys_of. right; right. exists t. rewrite in_app_iff. auto.
    + right. exists k. split.
      * rewrite Hl in Ht. apply filter_In in Ht. apply In_ctld_csys_of. exists t. tauto.
      * apply (nilr_mono _ _ Sb Sk). apply (J_dv _ _ _ _ true HJ Hd).
  - intros a Ha. apply csys_of_app_ts_base in Ha. destruct Ha as [Ha|[t [Ht [Hc Ha]]]]; auto.
    right; left. exists t. split; auto. apply In_more_work. eauto.
  - intros k a Ha Hd. apply csys_of_app_ts_ctld in Ha. destruct Ha as [Ha|Ha]; auto.
    apply In_ctld_csys_of in Ha. destruct Ha as [t [Ht [Hc Ha]]].
    right; left. exists t. split; auto. apply In_more_work. exists t. split; auto. right. exists k.
    repeat split; auto.
    + apply In_ctrl_sites. eauto.
    + apply in_or_app; right. apply filter_In. split; auto. apply controlled_iff. eauto.
Qed.

Definition pkg_run (facts : list (nat * fact)) (annots : list (site * bool)) (ts : list trigger) (st2 : state) : Prop :=
  exists st0 st1,
    Run init_state (upstream_items facts) st0 /\
    Run st0 (annot_items annots) st1 /\
    Run (fst (build_pkg_work st1 ts)) (snd (build_pkg_work st1 ts)) st2.

Definition pkg_csys (facts : list (nat * fact)) annots ts : csys := csys_of (map snd facts) annots ts.

Lemma in_base_annot (facts : list (nat * fact)) (annots : list (site * bool)) (ts : list trigger) (s : site) (b : bool) :
  In (s, b) annots -> In (if b then ASrc s else ASnk s) (base (pkg_csys facts annots ts)).
Proof. intros H. apply In_base_csys_of. right; left. apply In_atoms_of_annots. eauto. Qed.

Lemma upstream_items_atoms facts :
  map atom_of_item (upstream_items facts) = map Some (flat_map atoms_of_fact (map snd (sort_by fst facts))).
Proof.
  unfold upstream_items. induction (sort_by fst facts) as [|[rk f] l IH]; cbn; [reflexivity|].
  now rewrite !map_app, fact_items_atoms, IH.
Qed.

Lemma In_sorted_facts_atoms (facts : list (nat * fact)) a :
  In a (flat_map atoms_of_fact (map snd (sort_by fst facts))) <-> In a (flat_map atoms_of_fact (map snd facts)).
Proof. rewrite !in_flat_map. setoid_rewrite in_map_iff. setoid_rewrite In_sort_by. reflexivity. Qed.

Lemma pkg_run_ctl facts annots ts st2 : pkg_run facts annots ts st2 -> ctl st2 = filter controlled ts.
Proof. intros [st0 [st1 [RA [RB RC]]]]. rewrite (Run_ctl _ _ _ RC). reflexivity. Qed.

Section Package.
  Variables (facts : list (nat * fact)) (annots : list (site * bool)) (ts : list trigger).
  Let C := pkg_csys facts annots ts.

  (* two phases: the items of the imported facts and of the annotations stand for unconditional atoms; then the triggers *)
  Theorem pkg_Inv st2 : pkg_run facts annots ts st2 -> Inv C st2 [].
  Proof.
    intros [st0 [st1 [RA [RB RC]]]]. pose proof (Run_app_inv _ _ _ _ _ RA RB) as RAB.
    assert (IB : Inv (csys_of (map snd facts) annots []) st1 []).
    { apply (Inv_run _ _ _ _ RAB).
      apply Inv_atoms with (csys_of [] [] [])
        (flat_map atoms_of_fact (map snd (sort_by fst facts)) ++ atoms_of_annots (sort_by fst annots)); auto using Inv_init.
      - unfold annot_items. now rewrite !map_app, upstream_items_atoms, annot_map_atoms.
      - intros a. cbn. rewrite !in_app_iff, In_sorted_facts_atoms, !In_atoms_of_annots. setoid_rewrite In_sort_by. tauto. }
    assert (Hctl : ctl st1 = []) by apply (Run_ctl _ _ _ RAB).
    rewrite build_pkg_work_more in RC. replace (set_ctl st1 []) with st1 in RC by (destruct st1; cbn in *; now subst).
    apply (Inv_run _ _ _ _ RC). now apply (Inv_more_work _ _ [] ts).
  Qed.

  Theorem pkg_J st2 : pkg_run facts annots ts st2 -> J C st2 [].
  Proof. intros H. apply (pkg_Inv _ H). Qed.

  Theorem pkg_Good st2 : pkg_run facts annots ts st2 -> Good C st2 [].
  Proof. intros H. apply (pkg_Inv _ H). Qed.

  (* the C05 statements, at the level of one package *)
  Theorem engine_sound st2 : pkg_run facts annots ts st2 ->
    forall c, In c (conflicts st2) -> conflict_ok C c.
  Proof. intros H. apply Correct_sound, pkg_Inv, H. Qed.

  Theorem engine_conflict_iff_flow st2 : pkg_run facts annots ts st2 -> (conflicts st2 <> [] <-> has_flow C).
  Proof. intros H. apply Correct_iff_flow, pkg_Inv, H. Qed.

  Theorem engine_verdicts st2 : pkg_run facts annots ts st2 -> ~ has_flow C ->
    forall s, (dv st2 s = Some true <-> nilr C s) /\ (dv st2 s = Some false <-> nonr C s).
  Proof. intros H. apply Correct_verdicts, pkg_Inv, H. Qed.
End Package.

Lemma observe_package_run fuel st1 ts st2 :
  observe_package fuel st1 ts = Some st2 ->
  exists st2', Run (fst (build_pkg_work st1 ts)) (snd (build_pkg_work st1 ts)) st2' /\
               mp st2 = mp st2' /\ conflicts st2 = conflicts st2'.
Proof.
  unfold observe_package, build_pkg.
  destruct (build_pkg_work st1 ts) as [st1' w] eqn:E. cbn [fst snd].
  destruct (run fuel st1' w) as [sta|] eqn:R; [|discriminate].
  cbn. rewrite run_nil. intros [= <-]. exists sta. split; [eapply run_Run; eauto | split; reflexivity].
Qed.

Lemma analyze_pkg_runs exported fuel facts annots ts r :
  analyze_pkg exported fuel facts annots ts = Finished r \/ analyze_pkg exported fuel facts annots ts = Panicked r ->
  exists st0 st1 st2, Run init_state (upstream_items facts) st0 /\ Run st0 (annot_items annots) st1 /\
    Run (fst (build_pkg_work st1 ts)) (snd (build_pkg_work st1 ts)) st2 /\
    r_conflicts r = conflicts st2 /\ r_map r = mp st2 /\
    (analyze_pkg exported fuel facts annots ts = Finished r -> export exported (mp st0) (mp st2) = Some (r_fact r)).
Proof.
  unfold analyze_pkg.
  destruct (run fuel init_state (upstream_items facts)) as [st0|] eqn:R0; [|intros [H|H]; discriminate].
  destruct (run fuel st0 (annot_items annots)) as [st1|] eqn:R1; [|intros [H|H]; discriminate].
  destruct (observe_package fuel st1 ts) as [st2|] eqn:R2; [|intros [H|H]; discriminate].
  destruct (observe_package_run _ _ _ _ R2) as [st2' [RC [Em Ec]]].
  intros H. exists st0, st1, st2'. rewrite <- Em, <- Ec. repeat split; eauto using run_Run.
  all: destruct (export exported (mp st0) (mp st2)); try (destruct H as [H|H]; inversion H; reflexivity).
  all: intros H'; inversion H'; reflexivity.
Qed.

Lemma analyze_pkg_run exported fuel facts annots ts r :
  analyze_pkg exported fuel facts annots ts = Finished r \/ analyze_pkg exported fuel facts annots ts = Panicked r ->
  exists st2, pkg_run facts annots ts st2 /\ r_conflicts r = conflicts st2 /\ r_map r = mp st2.
Proof.
  intros H. destruct (analyze_pkg_runs _ _ _ _ _ _ H) as [st0 [st1 [st2 [RA [RB [RC [Ec [Em _]]]]]]]].
  exists st2. split; auto. exists st0, st1. auto.
Qed.
