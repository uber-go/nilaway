(* C20, first half: a contract accepted by infer_sem (model/Contract.v) is true of every execution of the function,
   whatever its callees and the package-level variables do. *)
From Coq Require Import List Bool.
From NM Require Import MiniGo Contract.
From NP Require Import FlowProofs.
Import ListNotations.

Lemma value_eqb_eq a b : value_eqb a b = true <-> anil a = anil b.
Proof. unfold value_eqb. split; intros H; [now apply eqb_prop | rewrite H; apply eqb_reflx]. Qed.

Section Sets.
  Variable vars : list nat.

  (* a concrete store (locals and package-level variables) is represented by an abstract local store *)
  Definition sim (s a : store) : Prop := forall x, In x vars -> anil (sget s (VL x)) = anil (sget a (VL x)).
  Definition covers (S : list store) (s : store) : Prop := exists a, In a S /\ sim s a.

  Lemma st_eqb_spec a b : st_eqb vars a b = true <-> forall x, In x vars -> anil (sget a (VL x)) = anil (sget b (VL x)).
  Proof.
    unfold st_eqb. rewrite forallb_forall. split; intros H x Hx; apply value_eqb_eq; auto.
  Qed.

  Lemma sim_eqb s a b : sim s a -> st_eqb vars a b = true -> sim s b.
  Proof. intros H E x Hx. rewrite (H x Hx). apply (proj1 (st_eqb_spec a b) E x Hx). Qed.

  Lemma sim_sset_local s a x v v' : sim s a -> anil v = anil v' -> sim (sset s (VL x) v) (sset a (VL x) v').
  Proof. intros H E y Hy. rewrite !sget_sset. destruct (var_eqb (VL x) (VL y)); auto. Qed.
  Lemma sim_sset_global s a k v : sim s a -> sim (sset s (VG k) v) a.
  Proof. intros H y Hy. rewrite sget_sset. cbn. auto. Qed.

  Lemma st_mem_covers a S s : st_mem vars a S = true -> sim s a -> covers S s.
  Proof.
    unfold st_mem. intros H Hs. apply existsb_exists in H. destruct H as [b [Hb E]].
    exists b. split; auto. eapply sim_eqb; eauto.
  Qed.

  Lemma covers_nil s : ~ covers [] s.
  Proof. intros [a [[] _]]. Qed.

  Lemma covers_cons a S s : covers (a :: S) s <-> sim s a \/ covers S s.
  Proof.
    split.
    - intros [b [[<-|Hb] Hs]]; [now left | right; now exists b].
    - intros [H|[b [Hb Hs]]]; [exists a | exists b]; cbn; auto.
  Qed.

  Lemma covers_add a S s : covers (st_add vars a S) s <-> sim s a \/ covers S s.
  Proof.
    unfold st_add. destruct (st_mem vars a S) eqn:E; [|apply covers_cons].
    split; [auto|]. intros [H|H]; auto. eapply st_mem_covers; eauto.
  Qed.

  Lemma covers_fold_add L T s : covers (fold_right (st_add vars) T L) s <-> covers L s \/ covers T s.
  Proof.
    induction L as [|a L IH]; cbn.
    - split; [auto | intros [H|H]; [destruct (covers_nil s H) | exact H]].
    - rewrite covers_add, IH, covers_cons. symmetry. apply or_assoc.
  Qed.

  Lemma covers_union S T s : covers (st_union vars S T) s <-> covers S s \/ covers T s.
  Proof. apply covers_fold_add. Qed.

  Lemma covers_subset S T s : st_subset vars S T = true -> covers S s -> covers T s.
  Proof.
    unfold st_subset. rewrite forallb_forall. intros H [a [Ha Hs]]. eapply st_mem_covers; eauto.
  Qed.

  Lemma covers_filter (P : store -> bool) S s a : In a S -> sim s a -> P a = true -> covers (filter P S) s.
  Proof. intros Ha Hs Hp. exists a. split; auto. apply filter_In. auto. Qed.
End Sets.

Section Sound.
  Variable prog : program.
  Variable vars : list nat.

  Lemma hvals_sound s a at_ : sim vars s a -> incl (latom at_) vars ->
    exists v, In v (hvals a at_) /\ anil v = anil (eval_atom s at_).
  Proof.
    intros Hs Hi. destruct at_ as [| |[x|k]]; cbn.
    - exists VNil. auto.
    - exists (VPtr None). auto.
    - exists (sget a (VL x)). split; auto. symmetry. apply Hs. apply Hi. left. reflexivity.
    - destruct (sget s (VG k)); [exists VNil|exists (VPtr None)]; cbn; auto.
  Qed.

  Lemma return_bad S s a : covers vars S s -> incl (latom a) vars -> eval_atom s a = VNil ->
    existsb (fun s0 => existsb anil (hvals s0 a)) S = true.
  Proof.
    intros [a0 [Ha Hs]] Hi Hv. apply existsb_exists. exists a0. split; auto. apply existsb_exists.
    destruct (hvals_sound s a0 a Hs Hi) as [v' [Hv' Ev]]. exists v'. split; auto. now rewrite Ev, Hv.
  Qed.

  (* x = one of the values vf gives: the abstract stores after it *)
  Definition assigns (S : list store) (x : var) (vf : store -> list value) : list store :=
    fold_right (st_add vars) [] (flat_map (fun a => assign_all vars a x (vf a)) S).

  Lemma assigns_covers S s x v vf : covers vars S s ->
    (forall a, sim vars s a -> exists v', In v' (vf a) /\ anil v = anil v') -> covers vars (assigns S x vf) (sset s x v).
  Proof.
    intros [a [Ha Hs]] Hv. destruct (Hv a Hs) as [v' [Hv' E]]. apply covers_fold_add. left. destruct x as [x|k]; cbn.
    - exists (sset a (VL x) v'). split; [|now apply sim_sset_local].
      apply in_flat_map. exists a. split; auto. cbn. apply in_map. auto.
    - exists a. split; [|now apply sim_sset_global]. apply in_flat_map. exists a. split; auto. cbn. auto.
  Qed.

  (* x = a, where the value written is nil exactly when a is *)
  Lemma assign_sound S s x a v : incl (latom a) vars -> covers vars S s -> anil v = anil (eval_atom s a) ->
    covers vars (assigns S x (fun s0 => hvals s0 a)) (sset s x v).
  Proof.
    intros Hi Hc Ev. apply assigns_covers; auto. intros a0 Hs.
    destruct (hvals_sound s a0 a Hs Hi) as [v' [Hv' Ev']]. exists v'. split; congruence.
  Qed.

  (* [x =] a value the function cannot see *)
  Definition havoc (S : list store) (x : option var) : list store :=
    match x with Some y => assigns S y (fun _ => [VNil; VPtr None]) | None => S end.
  Lemma havoc_covers S s x v : covers vars S s -> covers vars (havoc S x) (oset s x v).
  Proof.
    intros Hc. destruct x as [y|]; auto. apply assigns_covers; auto.
    intros _ _. exists (if anil v then VNil else VPtr None). destruct v; cbn; auto.
  Qed.
  Lemma covers_after S s s' : covers vars S s -> covers vars S (globals_of s' ++ locals_of s).
  Proof. intros [a [Ha Hs]]. exists a. split; auto. intros x Hx. rewrite sget_after. exact (Hs x Hx). Qed.
  (* a call of a function that does not exist changes nothing: the store is as if x were given its own value *)
  Lemma covers_reassign S s x : covers vars S (oset s x (match x with Some y => sget s y | None => VNil end)) -> covers vars S s.
  Proof.
    destruct x as [z|]; auto. cbn [oset]. intros [w [Hw H]]. exists w. split; auto. intros y Hy. rewrite <- (H y Hy), sget_sset.
    destruct (var_eqb z (VL y)) eqn:Ez; auto. apply var_eqb_eq in Ez. now subst.
  Qed.

  Lemma covers_deref S s x : covers vars S s -> incl (lvar x) vars -> sget s x <> VNil ->
    covers vars (match x with VL _ => filter (fun s0 => negb (anil (sget s0 x))) S | VG _ => S end) s.
  Proof.
    intros Hc Hi Hx. destruct x as [x|k]; auto. destruct Hc as [a0 [Ha Hs]]. apply (covers_filter vars _ S s a0 Ha Hs).
    rewrite <- (Hs x) by (apply Hi; now left). now destruct (sget s (VL x)).
  Qed.

  Lemma hcond_or a c1 c2 : hcond a (COr c1 c2) = hcond a (or_as_and c1 c2).
  Proof.
    cbn. induction (hcond a c1) as [|[|] l IH]; cbn; [reflexivity | now rewrite IH |].
    now rewrite map_app, map_map, (map_ext _ _ negb_involutive), map_id, IH.
  Qed.

  Lemma hcond_sound c : forall s a oracle b o', sim vars s a -> incl (lcond c) vars ->
    eval_cond s c oracle = CVal b o' -> In b (hcond a c).
  Proof.
    induction c as [|x|d x|c IH|c1 c2 IH1 IH2|c1 c2 IH] using cond_ind_or; intros s a oracle b o';
      [| | | | |rewrite eval_cond_or, hcond_or; apply IH]; intros Hs Hi He; cbn in He, Hi |- *.
    - destruct (ask oracle) as [b0 o0]. inversion He; subst. destruct b; cbn; auto.
    - inversion He; subst. destruct x as [x|k].
      + rewrite <- (Hs x) by (apply Hi; left; reflexivity). left. destruct (sget s (VL x)); reflexivity.
      + destruct (sget s (VG k)); cbn; auto.
    - destruct x as [x|k].
      + rewrite <- (Hs x) by (apply Hi; left; reflexivity). destruct (sget s (VL x)); [discriminate|]. cbn.
        destruct (ask oracle) as [b0 o0]. inversion He; subst. destruct b; cbn; auto.
      + destruct (sget s (VG k)); [discriminate|]. destruct (ask oracle) as [b0 o0]. inversion He; subst. destruct b; cbn; auto.
    - destruct (eval_cond s c oracle) as [b0 o0|] eqn:E; [|discriminate]. inversion He; subst.
      apply in_map. exact (IH _ _ _ _ _ Hs Hi E).
    - apply incl_app_inv in Hi as [I1 I2]. destruct (eval_cond s c1 oracle) as [b0 o0|] eqn:E; [|discriminate].
      apply in_flat_map. exists b0. split; [exact (IH1 _ _ _ _ _ Hs I1 E)|].
      destruct b0; [exact (IH2 _ _ _ _ _ Hs I2 He) | inversion He; now left].
  Qed.

  Definition enter c := fun s : store => existsb (fun b : bool => b) (hcond s c).
  Definition leave c := fun s : store => existsb negb (hcond s c).

  Lemma covers_branch c S s oracle b o' : covers vars S s -> incl (lcond c) vars -> eval_cond s c oracle = CVal b o' ->
    covers vars (filter (if b then enter c else leave c) S) s.
  Proof.
    intros [a0 [Ha Hs]] Hi Ec. pose proof (hcond_sound c s a0 oracle b o' Hs Hi Ec) as Hb.
    apply (covers_filter vars _ S s a0 Ha Hs). destruct b; apply existsb_exists; eexists; eauto.
  Qed.

  Lemma hloop_spec (body : list store -> option hres) c : forall n S Sinv b,
    hloop vars body c n S = Some (Sinv, b) ->
    (forall s, covers vars S s -> covers vars Sinv s) /\
    exists r, body (filter (enter c) Sinv) = Some r /\
              st_subset vars (h_norm r) Sinv = true /\ (h_bad r = true -> b = true).
  Proof.
    induction n as [|n IH]; intros S Sinv b H; cbn in H; [discriminate|].
    fold (enter c) in H. destruct (body (filter (enter c) S)) as [r|] eqn:Eb; [|discriminate].
    destruct (st_subset vars (h_norm r) S) eqn:Es.
    - inversion H; subst. split; auto. exists r. auto.
    - destruct (hloop vars body c n (st_union vars (h_norm r) S)) as [[S' b']|] eqn:El; [|discriminate].
      inversion H; subst. destruct (IH _ _ _ El) as [A [r' [B1 [B2 B3]]]]. split.
      + intros s Hs. apply A. apply covers_union. auto.
      + exists r'. repeat split; auto. intros Hb. rewrite (B3 Hb). reflexivity.
  Qed.

  (* what an abstract result says of a concrete outcome *)
  Definition agrees (r : hres) (out : outcome) : Prop :=
    match out with
    | ONormal s' _ => covers vars (h_norm r) s'
    | OReturn v _ _ => v = VNil -> h_bad r = true
    | _ => True
    end.

  Lemma agrees_mono r r' out : (forall s, covers vars (h_norm r) s -> covers vars (h_norm r') s) ->
    (h_bad r = true -> h_bad r' = true) -> agrees r out -> agrees r' out.
  Proof. intros Hn Hb. destruct out; cbn; auto. Qed.

  Lemma agrees_then r1 r out k : agrees r1 out -> (h_bad r1 = true -> h_bad r = true) ->
    (forall s' o', covers vars (h_norm r1) s' -> agrees r (k s' o')) ->
    agrees r match out with
             | ONormal s' o' => k s' o'
             | OReturn v s' o' => OReturn v s' o'
             | OPanic d => OPanic d
             | OOutOfFuel => OOutOfFuel
             end.
  Proof. intros H1 Hb Hk. destruct out; cbn in *; auto. Qed.

  Lemma call_agrees S s x out : covers vars S s ->
    agrees {| h_norm := havoc S x; h_bad := false |}
      match out with
      | ONormal s' o' => ONormal (oset (globals_of s' ++ locals_of s) x VNil) o'
      | OReturn v s' o' =>
          match sget s' VERR with VNil => ONormal (oset (globals_of s' ++ locals_of s) x v) o' | VPtr _ => OOutOfFuel end
      | OPanic d => OPanic d
      | OOutOfFuel => OOutOfFuel
      end.
  Proof.
    intros Hc. destruct out as [s' o'|v s' o'|d|]; cbn; auto; [|destruct (sget s' VERR); cbn; auto];
      apply havoc_covers, covers_after, Hc.
  Qed.

  Theorem hreach_sound hf : forall fuelx st s oracle S r,
    hreach vars hf st S = Some r -> incl (lstmt st) vars -> covers vars S s -> agrees r (exec prog fuelx st s oracle).
  Proof.
    induction fuelx as [|fuelx IH]; intros st s oracle S r Hh Hi Hc; cbn [exec]; [exact I|].
    destruct st as [| s1 s2 | x a | cs x g args | d x | c s1 s2 | c body | a | x ik j | x y ik ik2 | cs d x xi ik m args | a er | cs x xe g args | cs g args]; cbn in Hh, Hi.
    - inversion Hh; subst. exact Hc.
    - destruct (hreach vars hf s1 S) as [r1|] eqn:E1; [|discriminate].
      destruct (hreach vars hf s2 (h_norm r1)) as [r2|] eqn:E2; [|discriminate]. inversion Hh; subst r.
      apply incl_app_inv in Hi as [I1 I2]. apply (agrees_then r1); [exact (IH s1 s oracle S r1 E1 I1 Hc) | cbn; now intros -> |].
      intros s' o' R1. apply (agrees_mono r2); [auto | cbn; intros ->; apply orb_true_r | exact (IH s2 s' o' _ r2 E2 I2 R1)].
    - inversion Hh; subst r. apply incl_app_inv in Hi as [_ Ia]. exact (assign_sound S s x a _ Ia Hc eq_refl).
    - inversion Hh; subst r. destruct (nth_error (p_funcs prog) g) as [fd|]; [now apply call_agrees|].
      apply (covers_reassign _ s x), havoc_covers, Hc.
    - inversion Hh; subst r. destruct (sget s x) eqn:E; cbn; auto. apply covers_deref; auto. congruence.
    - destruct (hreach vars hf s1 _) as [r1|] eqn:E1; [|discriminate].
      destruct (hreach vars hf s2 _) as [r2|] eqn:E2; [|discriminate].
      inversion Hh; subst r. apply incl_app_inv in Hi as [Ic Hi]. apply incl_app_inv in Hi as [I1 I2].
      destruct (eval_cond s c oracle) as [b o'|d] eqn:Ec; [|exact I].
      pose proof (covers_branch c S s oracle b o' Hc Ic Ec) as Hb. destruct b.
      + apply (agrees_mono r1); [intros s' H; apply covers_union; auto | cbn; now intros -> | exact (IH s1 s o' _ r1 E1 I1 Hb)].
      + apply (agrees_mono r2); [intros s' H; apply covers_union; auto | cbn; intros ->; apply orb_true_r | exact (IH s2 s o' _ r2 E2 I2 Hb)].
    - destruct (hloop vars (hreach vars hf body) c hf S) as [[Sinv b]|] eqn:El; [|discriminate].
      inversion Hh; subst r.
      destruct (hloop_spec _ _ _ _ _ _ El) as [Hsub [rb [Hb1 [Hb2 Hb3]]]].
      pose proof Hi as Hi'. apply incl_app_inv in Hi' as [Ic Ib].
      destruct (eval_cond s c oracle) as [bb o'|d] eqn:Ec; [|exact I].
      pose proof (covers_branch c Sinv s oracle bb o' (Hsub s Hc) Ic Ec) as Hbb. destruct bb; [|exact Hbb].
      (* the invariant is closed: analysing the loop from it gives the same exits *)
      assert (Hl : hreach vars hf (SWhile c body) Sinv = Some {| h_norm := filter (leave c) Sinv; h_bad := h_bad rb |}).
      { cbn. destruct hf as [|hf']; [cbn in El; discriminate|]. cbn. fold (enter c). rewrite Hb1, Hb2. reflexivity. }
      apply (agrees_then rb); [exact (IH body s o' _ rb Hb1 Ib Hbb) | exact Hb3 |]. intros s' o'' R.
      apply (agrees_mono {| h_norm := filter (leave c) Sinv; h_bad := h_bad rb |}); [auto | exact Hb3 |].
      exact (IH (SWhile c body) s' o'' Sinv _ Hl Hi (covers_subset vars _ _ s' Hb2 R)).
    - inversion Hh; subst r. cbn. now apply return_bad.
    - (* conversions are assignments for the abstraction: of an allocation, of the converted variable *)
      inversion Hh; subst r. apply (assign_sound S s x ANew); auto. intros y [].
    - inversion Hh; subst r. apply incl_app_inv in Hi as [_ Iy]. pose proof (assign_sound S s x (AVar y)) as A. cbn [eval_atom latom] in A.
      destruct (sget s y) as [|[[k' j]|]] eqn:Ey; [|destruct (Nat.eqb ik2 k')|]; cbn; auto.
    - inversion Hh; subst r. apply incl_app_inv in Hi as [_ Hi]. apply incl_app_inv in Hi as [Ixi _].
      destruct (sget s xi) as [|[[k' j]|]] eqn:Exi; try exact I.
      destruct (if Nat.eqb ik k' then nth_error (nth j (p_impls prog) []) m else None) as [f|]; [|exact I].
      destruct (nth_error (p_funcs prog) f) as [fd|]; [|exact I].
      apply call_agrees, covers_deref; auto. congruence.
    - inversion Hh; subst r. cbn. apply incl_app_inv in Hi as [Ia _]. now apply return_bad.
    - inversion Hh; subst r. destruct (nth_error (p_funcs prog) g) as [fd|].
      + destruct (exec prog fuelx (f_body fd) (bind_params 0 (map (eval_atom s) args) ++ globals_of s) oracle) as [s' o'|v s' o'|d|];
          try exact I; apply (havoc_covers _ _ xe), (havoc_covers _ _ x), covers_after, Hc.
      + apply (covers_reassign _ s xe), havoc_covers, (covers_reassign _ s x), havoc_covers, Hc.
    - (* return g(args): the state is covered, so the abstract state set is not empty *)
      inversion Hh; subst r. destruct Hc as [a0 [Ha Hs]].
      assert (Hne : match S with [] => false | _ => true end = true) by (destruct S; [destruct Ha|reflexivity]).
      destruct (nth_error (p_funcs prog) g) as [fd|]; [|exact I].
      destruct (exec prog fuelx (f_body fd) (bind_params 0 (map (eval_atom s) args) ++ globals_of s) oracle) as [s' o'|v s' o'|d|]; cbn; auto.
  Qed.
End Sound.


Theorem infer_sem_sound prog hf fd : infer_sem hf fd = true -> contract_true prog fd.
Proof.
  unfold infer_sem. intros H. apply andb_true_iff in H. destruct H as [Hn H].
  set (vars := 0 :: lstmt (f_body fd)) in *.
  destruct (hreach vars hf (f_body fd) [[(VL 0, VPtr None)]]) as [r|] eqn:Eh; [|discriminate].
  apply andb_true_iff in H. destruct H as [Hb Hnorm]. apply negb_true_iff in Hb.
  destruct (h_norm r) eqn:En; [|discriminate].
  intros fuel gs oracle dd Hgs.
  assert (Hc : covers vars [[(VL 0, VPtr None)]] (bind_params 0 [VPtr dd] ++ gs)).
  { exists [(VL 0, VPtr None)]. split; [left; reflexivity|]. intros x _. cbn. destruct x as [|x]; auto. now rewrite Hgs. }
  assert (Hi : incl (lstmt (f_body fd)) vars) by (intros y Hy; right; auto).
  pose proof (hreach_sound prog vars hf fuel (f_body fd) _ oracle _ r Eh Hi Hc) as R.
  destruct (exec prog fuel (f_body fd) (bind_params 0 [VPtr dd] ++ gs) oracle) as [s' o'|v s' o'|d|]; cbn in R; auto.
  - rewrite En in R. exact (covers_nil vars s' R).
  - destruct v; [|discriminate]. rewrite (R eq_refl) in Hb. discriminate.
Qed.
