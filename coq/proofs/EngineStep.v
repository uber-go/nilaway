(* What one step of the engine does to determined values and stored edges. *)
From Coq Require Import List PeanoNat.
From NM Require Import Engine.
From NP Require Import EngineBasics.
Import ListNotations.

Definition dv (st : state) (s : site) : option bool :=
  match det_l (mp st) s with Some e => Some (eval_expl e) | None => None end.

Definition stored (st : state) (p c : site) : Prop :=
  lookup (outs_l (mp st) p) c <> None /\ lookup (ins_l (mp st) c) p <> None.

Lemma dv_set_mp_store_det st s e x :
  dv (set_mp st (store (mp st) s (Det e))) x = if Nat.eqb s x then Some (eval_expl e) else dv st x.
Proof. unfold dv; cbn. rewrite det_store_det. destruct (Nat.eqb s x); auto. Qed.

Lemma dv_store_impl st p c t x : dv (set_mp st (store_impl (mp st) p c t)) x = dv st x.
Proof. unfold dv; cbn. now rewrite store_impl_det. Qed.

Lemma dv_det st s e b : det_l (mp st) s = Some e -> eval_expl e = b -> dv st s = Some b.
Proof. unfold dv. now intros -> ->. Qed.
Lemma dv_undet st s : det_l (mp st) s = None -> dv st s = None.
Proof. unfold dv. now intros ->. Qed.

Lemma dv_lookup st s : dv st s = match lookup (mp st) s with Some (Det e) => Some (eval_expl e) | _ => None end.
Proof. unfold dv, det_l. destruct (lookup (mp st) s) as [[e|i o]|]; auto. Qed.

Lemma is_det_true_dv st s : is_det_true (mp st) s = true <-> dv st s = Some true.
Proof.
  unfold is_det_true. rewrite dv_lookup. destruct (lookup (mp st) s) as [[e|i o]|]; split; intros H; try discriminate; auto.
  - now rewrite H.
  - now inversion H.
Qed.

Lemma step_det_mono st it st1 new s e :
  step st it = (st1, new) -> det_l (mp st) s = Some e -> det_l (mp st1) s = Some e.
Proof.
  intros Hs Hd. destruct (step_Step _ _ _ _ Hs) as [| |s0 e0 D| | | | | | |]; cbn; auto.
  - rewrite det_store_det. destruct (Nat.eqb_spec s0 s) as [->|]; congruence.
  - now rewrite store_impl_det.
Qed.

Lemma step_dv_mono st it st1 new s b : step st it = (st1, new) -> dv st s = Some b -> dv st1 s = Some b.
Proof.
  unfold dv. intros Hs. destruct (det_l (mp st) s) as [e|] eqn:E; [|discriminate].
  now rewrite (step_det_mono _ _ _ _ _ _ Hs E).
Qed.

Lemma Run_det_mono st work st' s e : Run st work st' -> det_l (mp st) s = Some e -> det_l (mp st') s = Some e.
Proof. induction 1; auto. intros D. apply IHRun. eapply step_det_mono; eauto. Qed.

Lemma Run_dv_mono st work st' s b : Run st work st' -> dv st s = Some b -> dv st' s = Some b.
Proof. induction 1; auto. intros D. apply IHRun. eapply step_dv_mono; eauto. Qed.

Lemma step_dv_frame st it st1 new x : step st it = (st1, new) ->
  dv st1 x = dv st x \/
  exists e, it = ISite x e /\ dv st x = None /\ dv st1 x = Some (eval_expl e) /\
            new = activate st x (eval_expl e) ++ propagate e (outs_l (mp st) x) (ins_l (mp st) x).
Proof.
  intros Hs. destruct (step_Step _ _ _ _ Hs) as [| |s e D| | | | | | |]; try (left; reflexivity).
  - rewrite dv_set_mp_store_det. destruct (Nat.eqb_spec s x) as [->|]; [right|now left].
    exists e. auto using dv_undet.
  - left. apply dv_store_impl.
Qed.

Lemma step_dv_none st it st1 new x : step st it = (st1, new) -> dv st1 x = None -> dv st x = None.
Proof. intros Hs D. destruct (dv st x) eqn:E; auto. rewrite (step_dv_mono _ _ _ _ _ _ Hs E) in D. discriminate. Qed.

Lemma step_site_noconf st s e st1 new :
  step st (ISite s e) = (st1, new) -> conflicts st1 = [] -> dv st1 s = Some (eval_expl e).
Proof.
  intros Hs Hc. apply step_Step in Hs. inversion Hs as [? ? e' D E| ? ? e' D E| ? ? D| | | | | | |]; subst.
  - exact (dv_det _ _ _ _ D E).
  - now apply app_eq_nil in Hc.
  - now rewrite dv_set_mp_store_det, Nat.eqb_refl.
Qed.

Lemma stored_inv st x y : stored st x y ->
  (exists i o t, lookup (mp st) x = Some (Undet i o) /\ In (y, t) o) /\
  (exists i o t, lookup (mp st) y = Some (Undet i o) /\ In (x, t) i).
Proof.
  unfold stored, outs_l, ins_l. intros [Ho Hi]. apply lookup_not_None_In in Ho, Hi. destruct Ho as [t Ho], Hi as [t' Hi].
  split; [destruct (lookup (mp st) x) as [[e|i o]|] | destruct (lookup (mp st) y) as [[e|i o]|]]; try contradiction; eauto.
Qed.

Lemma stored_store_impl st p c t x y : det_l (mp st) p = None -> det_l (mp st) c = None ->
  stored st x y \/ (x = p /\ y = c) -> stored (set_mp st (store_impl (mp st) p c t)) x y.
Proof.
  intros Dp Dc H. unfold stored; cbn. rewrite store_impl_outs_eq, store_impl_ins_eq by auto.
  destruct H as [[H1 H2]|[-> ->]].
  - destruct (Nat.eqb_spec p x) as [->|], (Nat.eqb_spec c y) as [->|]; auto using lookup_store_key.
  - rewrite !Nat.eqb_refl, !lookup_store, !Nat.eqb_refl. split; discriminate.
Qed.

Lemma step_stored st it st1 new p c :
  step st it = (st1, new) -> stored st p c -> dv st1 p = None -> dv st1 c = None -> stored st1 p c.
Proof.
  intros Hs Hst Hp Hc. destruct (step_Step _ _ _ _ Hs) as [| |s e D| | | | | | |]; auto.
  - rewrite dv_set_mp_store_det in Hp, Hc. unfold stored in *; cbn. rewrite outs_store_det, ins_store_det.
    destruct (Nat.eqb s p); [discriminate|]. destruct (Nat.eqb s c); [discriminate|]. exact Hst.
  - apply stored_store_impl; auto.
Qed.
