(* M11 (model/Nonce.v): the guard-nonce set operations are the set operations. *)
From Coq Require Import List Bool PeanoNat.
From NM Require Import Nonce.
From NP Require Import ListFacts.
Import ListNotations.

Lemma contains_spec g n : ns_contains g n = true <-> In n g.
Proof. apply existsb_eqb_in. Qed.

Lemma add1_spec g n x : In x (ns_add1 g n) <-> x = n \/ In x g.
Proof.
  unfold ns_add1. destruct (ns_contains g n) eqn:C.
  - apply contains_spec in C. split; [auto|intros [->|]; auto].
  - rewrite in_app_iff. simpl. split; [intros [I|[<-|[]]]; auto|intros [->|I]; auto].
Qed.

Lemma add1_nodup g n : NoDup g -> NoDup (ns_add1 g n).
Proof.
  unfold ns_add1. destruct (ns_contains g n) eqn:C; auto. intros N.
  apply NoDup_app_single; [exact N|]. now apply existsb_eqb_notin.
Qed.

Lemma add_spec ns : forall g x, In x (ns_add g ns) <-> In x ns \/ In x g.
Proof.
  unfold ns_add. induction ns as [|n ns IH]; intros g x; simpl; [tauto|].
  rewrite IH, add1_spec. split; [intros [I|[->|I]]; auto|intros [[<-|I]|I]; auto].
Qed.

Lemma add_nodup ns : forall g, NoDup g -> NoDup (ns_add g ns).
Proof. intros g N. unfold ns_add. apply fold_left_invariant; [exact N|]. intros a x _. apply add1_nodup. Qed.

Lemma remove1_spec g n x : In x (ns_remove1 g n) <-> In x g /\ x <> n.
Proof.
  unfold ns_remove1. rewrite filter_In, negb_true_iff, Nat.eqb_neq. split; intros [I N]; auto.
Qed.

Lemma remove_spec ns : forall g x, In x (ns_remove g ns) <-> In x g /\ ~ In x ns.
Proof.
  unfold ns_remove. induction ns as [|n ns IH]; intros g x; simpl; [tauto|].
  rewrite IH, remove1_spec. split.
  - intros [[I N] M]. split; [exact I|]. intros [E|J]; [exact (N (eq_sym E))|exact (M J)].
  - intros [I M]. split; [split; [exact I|intros ->; apply M; now left]|intros J; apply M; now right].
Qed.

Lemma remove_nodup ns : forall g, NoDup g -> NoDup (ns_remove g ns).
Proof. intros g N. unfold ns_remove. apply fold_left_invariant; [exact N|]. intros a x _. apply NoDup_filter. Qed.

Lemma subset_spec g o : ns_subset g o = true <-> forall x, In x g -> In x o.
Proof.
  unfold ns_subset. rewrite forallb_forall. split; intros H x I; apply contains_spec; auto.
Qed.

Lemma union_spec os : forall g x, In x (ns_union g os) <-> In x g \/ exists o, In o os /\ In x o.
Proof.
  unfold ns_union. intros g x.
  assert (G : forall os acc, In x (fold_left ns_add os acc) <-> In x acc \/ exists o, In o os /\ In x o).
  { clear. induction os as [|o os IH]; intros acc; simpl.
    - split; [auto|intros [|(o & [] & _)]; auto].
    - rewrite IH, add_spec. split.
      + intros [[I|I]|(o' & I & J)]; [right; exists o|left|right; exists o']; auto.
      + intros [I|(o' & [<-|I] & J)]; [auto|auto|right; exists o'; auto]. }
  rewrite G, add_spec. simpl. tauto.
Qed.

Lemma union_nodup os g : NoDup (ns_union g os).
Proof.
  unfold ns_union. apply fold_left_invariant; [apply add_nodup; constructor|]. intros a o _. apply add_nodup.
Qed.

Lemma inter_spec g os x : In x (ns_inter g os) <-> In x g /\ forall o, In o os -> In x o.
Proof.
  unfold ns_inter. rewrite filter_In, andb_true_iff, forallb_forall, contains_spec, union_spec.
  split.
  - intros (_ & I & H). split; auto. intros o Io. apply contains_spec. auto.
  - intros (I & H). repeat split; auto. intros o Io. apply contains_spec. auto.
Qed.

Lemma inter_nodup g os : NoDup (ns_inter g os).
Proof. unfold ns_inter. apply NoDup_filter, union_nodup. Qed.

Lemma eq_spec g o : ns_eq g o = true <-> forall x, In x g <-> In x o.
Proof.
  unfold ns_eq. rewrite andb_true_iff, !subset_spec. split.
  - intros [A B] x. split; auto.
  - intros H. split; intros x I; apply H; auto.
Qed.

Lemma copy_spec g x : In x (ns_copy g) <-> In x g.
Proof.
  unfold ns_copy. rewrite union_spec. split; [intros [|(o & [<-|[]] & [])]; auto|auto].
Qed.

Lemma eq_refl_ns g : ns_eq g g = true.
Proof. apply eq_spec. tauto. Qed.
Lemma eq_sym_ns g o : ns_eq g o = ns_eq o g.
Proof. unfold ns_eq. apply andb_comm. Qed.
Lemma eq_trans_ns a b c : ns_eq a b = true -> ns_eq b c = true -> ns_eq a c = true.
Proof. rewrite !eq_spec. intros H1 H2 x. rewrite H1. apply H2. Qed.
Lemma eq_contains g o n : ns_eq g o = true -> ns_contains g n = ns_contains o n.
Proof.
  rewrite eq_spec. intros H. apply eq_true_iff_eq. rewrite !contains_spec. apply H.
Qed.

(* a strictly smaller set is not equal: losing a guard is a change the fixpoint iteration sees *)
Lemma eq_detects_loss g n : In n g -> ns_eq (ns_remove g [n]) g = false.
Proof.
  intros I. destruct (ns_eq (ns_remove g [n]) g) eqn:E; auto.
  rewrite eq_spec in E. apply E in I. apply remove_spec in I. simpl in I. tauto.
Qed.

Example nonce_example :
  nrun [[]; []; []] [OAdd 0 [1; 2; 3]; OAdd 1 [2; 3; 4]; OInter 2 0 [1]; OEq 2 0; OSubset 2 0; ORemove 0 [1]; OEq 2 0; OContains 1 4]
  = ([[2; 3]; [2; 3; 4]; [2; 3]], [false; true; true; true]).
Proof. reflexivity. Qed.
