(* Soundness of the flow analysis on MiniGo: if the constraint system made of the emitted triggers has no
   source-to-sink flow (i.e., by C05, the engine reports no conflict), no execution dereferences nil. *)
From Coq Require Import List Bool PeanoNat Lia.
From NM Require Import Engine EngineSpec MiniGo Flow.
From NP Require Import ListFacts SpecFacts.
From NP Require Export MiniGoFacts.
Import ListNotations.

Lemma asite_eqb_refl s : asite_eqb s s = true.
Proof. destruct s; cbn; now rewrite ?Nat.eqb_refl. Qed.
Lemma asite_eqb_eq s t : asite_eqb s t = true <-> s = t.
Proof.
  split; [|intros <-; apply asite_eqb_refl].
  destruct s, t; try discriminate; cbn; rewrite ?andb_true_iff, ?Nat.eqb_eq; intros H; decompose [and] H; now subst.
Qed.
Lemma prod_eqb_eq p q : prod_eqb p q = true <-> p = q.
Proof.
  split.
  - destruct p, q; try discriminate; cbn; rewrite ?andb_true_iff, ?Nat.eqb_eq, ?asite_eqb_eq, ?var_eqb_eq;
      intros H; decompose [and] H; now subst.
  - intros <-. destruct p; cbn; now rewrite ?Nat.eqb_refl, ?asite_eqb_refl, ?var_eqb_refl.
Qed.
Lemma prod_in p l : existsb (prod_eqb p) l = true <-> In p l.
Proof. apply existsb_eq_in, prod_eqb_eq. Qed.

Definition env_le (e1 e2 : env) : Prop := forall x p, In p (aget e1 x) -> In p (aget e2 x).

Lemma env_le_refl e : env_le e e.
Proof. intros x p H; exact H. Qed.
Lemma env_le_trans e1 e2 e3 : env_le e1 e2 -> env_le e2 e3 -> env_le e1 e3.
Proof. intros H1 H2 x p H. apply H2, H1, H. Qed.

Lemma aget_notin e x : ~ In x (keys e) -> aget e x = dflt x.
Proof.
  induction e as [|[y a] e IH]; cbn; auto. intros H.
  destruct (var_eqb y x) eqn:E; [apply var_eqb_eq in E; subst; tauto|]. apply IH. tauto.
Qed.

Lemma aget_notin_app e1 e2 x : ~ In x (keys e1 ++ keys e2) -> aget e1 x = dflt x /\ aget e2 x = dflt x.
Proof. intros H. apply notin_app in H as [H1 H2]. split; now apply aget_notin. Qed.

Lemma subset_b_sound a b : subset_b a b = true -> forall p, In p a -> In p b.
Proof.
  unfold subset_b. rewrite forallb_forall. intros H p Hp. now apply prod_in, H.
Qed.

Lemma env_leb_sound e1 e2 : env_leb e1 e2 = true -> env_le e1 e2.
Proof.
  unfold env_leb. rewrite forallb_forall. intros H x p Hp.
  destruct (in_dec var_eq_dec x (keys e1 ++ keys e2)) as [Hin|Hnin].
  - eapply subset_b_sound; eauto.
  - destruct (aget_notin_app _ _ _ Hnin) as [E1 E2]. now rewrite E1 in Hp; rewrite E2.
Qed.

Lemma aget_map_keys (g : var -> aset) l x : In x l -> aget (map (fun y => (y, g y)) l) x = g x.
Proof.
  induction l as [|y l IH]; cbn; [tauto|]. intros H.
  destruct (var_eqb y x) eqn:E; [apply var_eqb_eq in E; now subst|].
  destruct H as [->|H]; [rewrite var_eqb_refl in E; discriminate | auto].
Qed.

Lemma in_union a b p : In p (union a b) <-> In p a \/ In p b.
Proof.
  unfold union. rewrite in_app_iff, filter_In. split.
  - intros [H|[H _]]; auto.
  - intros [H|H]; auto. destruct (existsb (prod_eqb p) a) eqn:E.
    + apply prod_in in E. auto.
    + right. split; auto.
Qed.

Lemma in_dedup_vars l x : In x (dedup_vars l) <-> In x l.
Proof.
  induction l as [|y l IH]; cbn; [tauto|]. destruct (existsb (var_eqb y) l) eqn:E.
  - rewrite IH. split; auto. intros [->|H]; auto.
    now apply (existsb_eq_in _ var_eqb_eq) in E.
  - cbn. rewrite IH. tauto.
Qed.

Lemma aget_join e1 e2 x p : In p (aget (join e1 e2) x) <-> In p (aget e1 x) \/ In p (aget e2 x).
Proof.
  unfold join. destruct (in_dec var_eq_dec x (keys e1 ++ keys e2)) as [Hin|Hnin].
  - rewrite aget_map_keys by (now apply in_dedup_vars). apply in_union.
  - destruct (aget_notin_app _ _ _ Hnin) as [-> ->]. rewrite aget_notin; [tauto|].
    unfold keys at 1. rewrite map_map. cbn. now rewrite map_id, in_dedup_vars.
Qed.

Lemma join_le_l e1 e2 : env_le e1 (join e1 e2).
Proof. intros x p H. apply aget_join. auto. Qed.
Lemma join_le_r e1 e2 : env_le e2 (join e1 e2).
Proof. intros x p H. apply aget_join. auto. Qed.

Lemma aget_aput e x a y : aget (aput e x a) y = if var_eqb x y then a else aget e y.
Proof. reflexivity. Qed.

Lemma aget_env_map fn e x : (forall p, In p (dflt x) -> fn p = p) -> aget (env_map fn e) x = map fn (aget e x).
Proof.
  intros Hd. induction e as [|[y a] e IH]; cbn.
  - symmetry. destruct x; cbn in *; rewrite Hd; auto.
  - destruct (var_eqb y x); auto.
Qed.
Lemma kill_dflt xe x p : In p (dflt x) -> kill_guard xe p = p.
Proof. destruct x; cbn; intros [<-|[]]; reflexivity. Qed.
Lemma check_dflt xe x p : In p (dflt x) -> check_guard xe p = p.
Proof. destruct x; cbn; intros [<-|[]]; reflexivity. Qed.
Lemma aget_aputk e x a y : aget (aputk e x a) y = map (kill_guard x) (if var_eqb x y then a else aget e y).
Proof. unfold aputk. rewrite aget_aput. destruct (var_eqb x y); auto. apply aget_env_map. apply kill_dflt. Qed.

Lemma norm_in ps p : In p (norm ps) -> In p ps.
Proof. unfold norm. intros H. apply filter_In in H. tauto. Qed.
Lemma norm_keep ps p : In p ps ->
  In p (norm ps) \/ exists f cs q, p = PChecked f cs /\ In q (norm ps) /\ kind_of q = KAlways.
Proof.
  intros Hp. unfold norm. destruct p as [| |s| |f c x|f c|f c]; try (left; apply filter_In; split; auto; fail).
  destruct (existsb (fun q => match q with PGuard g _ _ | PUng g _ => Nat.eqb f g | _ => false end) ps) eqn:E.
  - right. apply existsb_exists in E. destruct E as [q [Hq Eq]]. exists f, c, q. split; auto.
    destruct q as [| |s| |g d y|g d|g d]; try discriminate; (split; [apply filter_In; split; auto|reflexivity]).
  - left. apply filter_In. split; auto. now rewrite E.
Qed.

Lemma use_ok_in ps p : use_ok ps = true -> In p ps -> p <> PStale.
Proof.
  unfold use_ok. intros H Hp ->. apply prod_in in Hp. rewrite Hp in H. discriminate.
Qed.

Lemma aget_mark_stale e : forall ng x, aget (mark_stale ng e) x =
  match x with
  | VL _ => aget e x
  | VG k => if Nat.ltb k ng && negb (fresh e k) then PStale :: aget e x else aget e x
  end.
Proof.
  induction ng as [|n IH]; intros x; cbn [mark_stale].
  - destruct x; auto.
  - destruct (fresh e n) eqn:F.
    + rewrite IH. destruct x as [i|k]; auto.
      destruct (Nat.ltb_spec k n), (Nat.ltb_spec k (S n)); cbn; auto; try lia.
      assert (k = n) by lia. subst. now rewrite F.
    + rewrite aget_aput. destruct x as [i|k]; cbn [var_eqb].
      * apply IH.
      * destruct (Nat.eqb_spec n k) as [->|E].
        -- rewrite F. destruct (Nat.ltb_spec k (S k)); cbn; auto; lia.
        -- rewrite IH. destruct (Nat.ltb_spec k n), (Nat.ltb_spec k (S n)); cbn; auto; lia.
Qed.

(* env after x, xe = g(..) at call site cs: the one the analysis computes (analyze_call2) *)
Definition call2_env (ng : nat) (e : env) (cs : nat) (x xe : option var) (g : fname) : env :=
  let e' := mark_stale ng e in
  let res := match xe with Some y => [PGuard g cs y] | None => [PUng g cs] end in
  let e1 := match x with Some y => env_map (kill_guard y) e' | None => e' end in
  let e2 := match xe with Some y => env_map (kill_guard y) e1 | None => e1 end in
  let e3 := match xe with Some y => aput e2 y [PStale] | None => e2 end in
  match x with Some y => aput e3 y res | None => e3 end.

Lemma analyze_call2 ng ctr sp f fuel cs x xe g args e :
  analyze ng ctr sp f fuel (SCall2 cs x xe g args) e =
  Some {| a_env := Some (call2_env ng e cs x xe g); a_trig := arg_triggers e (fun i => SParam g i) 0 args;
          a_gsafe := forallb (fun a => use_ok (prods_of_atom e a)) args; a_rsafe := true |}.
Proof. reflexivity. Qed.

Definition okill (x : option var) (p : prod) : prod := match x with Some y => kill_guard y p | None => p end.

Lemma aget_call2_env ng e cs x xe g z : aget (call2_env ng e cs x xe g) z =
  if is_target x z then match xe with Some y => [PGuard g cs y] | None => [PUng g cs] end
  else if is_target xe z then [PStale]
  else map (okill xe) (map (okill x) (aget (mark_stale ng e) z)).
Proof.
  unfold call2_env. destruct x as [y|], xe as [ye|]; cbn [aget aput is_target okill].
  - destruct (var_eqb y z), (var_eqb ye z); auto. now rewrite !aget_env_map by apply kill_dflt.
  - destruct (var_eqb y z); auto. now rewrite aget_env_map, map_id by apply kill_dflt.
  - destruct (var_eqb ye z); auto. now rewrite aget_env_map, map_id by apply kill_dflt.
  - now rewrite !map_id.
Qed.

Lemma aget_entry_env g n : forall i0 j,
  aget (entry_env g i0 n) (VL (i0 + j)) = if Nat.ltb j n then [PSite (SParam g (i0 + j))] else [PNil].
Proof.
  induction n as [|n IH]; intros i0 [|j]; cbn [entry_env aget var_eqb]; auto.
  - now rewrite Nat.add_0_r, Nat.eqb_refl.
  - rewrite eqb_add_S, <- Nat.add_succ_comm. apply IH.
Qed.
Lemma aget_entry_env_glob g n k : forall i0, aget (entry_env g i0 n) (VG k) = [PSite (SGlobal k)].
Proof. induction n as [|n IH]; intros i0; cbn; auto. Qed.
Lemma aget_entry g n x : aget (entry_env g 0 n) x =
  match x with
  | VL i => if Nat.ltb i n then [PSite (SParam g i)] else [PNil]
  | VG k => [PSite (SGlobal k)]
  end.
Proof. destruct x as [i|k]; [exact (aget_entry_env g n 0 i) | apply aget_entry_env_glob]. Qed.

Lemma arg_triggers_nth (P : strig -> Prop) e sf : forall args i0 i a,
  Forall P (arg_triggers e sf i0 args) -> nth_error args i = Some a ->
  Forall P (map (fun p => mk_trigger 0 p (CSite (sf (i0 + i)))) (uprods e a)).
Proof.
  induction args as [|a0 args IH]; intros i0 [|i] a H Hn; try discriminate; cbn in H, Hn; apply Forall_app in H as [H1 H2].
  - inversion Hn; subst. now rewrite Nat.add_0_r.
  - rewrite <- Nat.add_succ_comm. eauto.
Qed.

Lemma decl_triggers_in gi : forall k0 k, nth_error gi k = Some false ->
  In (mk_trigger 0 PNil (CSite (SGlobal (k0 + k)))) (decl_triggers k0 gi).
Proof.
  induction gi as [|b gi IH]; intros k0 [|k] H; try discriminate; cbn in H |- *; apply in_or_app.
  - inversion H; subst. rewrite Nat.add_0_r. left. now left.
  - right. rewrite <- Nat.add_succ_comm. auto.
Qed.

Lemma in_seq_from n : forall i0 i, i0 <= i < i0 + n -> In i (seq_from i0 n).
Proof. induction n as [|n IH]; intros i0 i H; [lia|]. cbn. destruct (Nat.eq_dec i0 i); auto. right. apply IH. lia. Qed.

Lemma nth_error_firstn_lt {A} (l : list A) : forall n m, m < n -> nth_error (firstn n l) m = nth_error l m.
Proof.
  induction l as [|a l IH]; intros n m H; [now rewrite firstn_nil|].
  destruct n as [|n]; [lia|]. destruct m as [|m]; cbn; auto. apply IH. lia.
Qed.

Lemma affil_methods_in funcs k : forall row m0 m f fd,
  nth_error row m = Some f -> nth_error funcs f = Some fd ->
  forall t, In t (affil_method k (m0 + m) f (f_nparams fd)) -> In t (affil_methods funcs k m0 row).
Proof.
  induction row as [|f0 row IH]; intros m0 [|m] f fd Hn Hf t Ht; try discriminate; cbn in Hn; cbn [affil_methods]; apply in_or_app.
  - inversion Hn; subst. rewrite Hf. rewrite Nat.add_0_r in Ht. auto.
  - right. rewrite <- Nat.add_succ_comm in Ht. eauto.
Qed.

Lemma affil_in prog k j m np f fd t : nth_error (isig prog k) m = Some np -> nth_error (nth j (p_impls prog) []) m = Some f ->
  nth_error (p_funcs prog) f = Some fd -> In t (affil_method k m f (f_nparams fd)) -> In t (affil prog (k, j)).
Proof.
  intros Hs Hm Hf Ht. unfold affil. cbn [fst snd]. eapply (affil_methods_in _ k _ 0 m f fd); eauto.
  rewrite nth_error_firstn_lt; auto. apply nth_error_Some. congruence.
Qed.

Lemma ilink_methods_in k k2 : forall sig m0 m np,
  nth_error sig m = Some np -> forall t, In t (ilink_method k k2 (m0 + m) np) -> In t (ilink_methods k k2 m0 sig).
Proof.
  induction sig as [|n0 sig IH]; intros m0 [|m] np Hn t Ht; try discriminate; cbn in Hn; cbn [ilink_methods]; apply in_or_app.
  - inversion Hn; subst. rewrite Nat.add_0_r in Ht. auto.
  - right. rewrite <- Nat.add_succ_comm in Ht. eauto.
Qed.
Lemma iaffil_in prog k k2 m np t : nth_error (isig prog k) m = Some np -> In t (ilink_method k k2 m np) ->
  In t (iaffil prog (k, k2)).
Proof. intros Hs Ht. exact (ilink_methods_in k k2 _ 0 m np Hs t Ht). Qed.

Lemma conform_from_spec prog : forall sig row m np, conform_from prog row sig = true -> nth_error sig m = Some np ->
  exists f fd, nth_error row m = Some f /\ nth_error (p_funcs prog) f = Some fd /\ f_nparams fd = S np.
Proof.
  induction sig as [|n0 sig IH]; intros [|f0 row] [|m] np H Hn; try discriminate; cbn in H, Hn |- *;
    apply andb_true_iff in H as [H0 H1]; [|now apply IH].
  inversion Hn; subst. destruct (nth_error (p_funcs prog) f0) as [fd|] eqn:Ef; [|discriminate].
  exists f0, fd. repeat split; auto. now apply Nat.eqb_eq.
Qed.

Lemma prefix_b_spec : forall a b m x, prefix_b a b = true -> nth_error a m = Some x -> nth_error b m = Some x.
Proof.
  induction a as [|x0 a IH]; intros [|y0 b] [|m] x H Hn; try discriminate; cbn in H, Hn |- *;
    apply andb_true_iff in H as [H0 H1]; [|now apply IH].
  apply Nat.eqb_eq in H0. now subst.
Qed.

Lemma acond_or c1 c2 e : acond (COr c1 c2) e = acond (or_as_and c1 c2) e.
Proof. cbn. destruct (acond c1 e) as [[[et1 ef1] tr1] b1]. now destruct (acond c2 ef1) as [[[et2 ef2] tr2] b2]. Qed.

Lemma loop_inv_ind (Q : env -> Prop) (an : env -> option ares) c :
  (forall e r eb, Q e -> an (cond_true c e) = Some r -> a_env r = Some eb -> Q (join e eb)) ->
  forall n e einv r, Q e -> loop_inv an c n e = Some (einv, r) ->
  Q einv /\ an (cond_true c einv) = Some r /\ (forall eb, a_env r = Some eb -> env_leb eb einv = true).
Proof.
  intros Hstep. induction n as [|n IH]; intros e einv r HQ H; cbn in H; [discriminate|].
  destruct (an (cond_true c e)) as [r0|] eqn:Ea; [|discriminate].
  destruct (a_env r0) as [eb|] eqn:Eb; [destruct (env_leb eb e) eqn:El|].
  - inversion H; subst. repeat split; auto. intros eb' E. rewrite Eb in E. now inversion E; subst.
  - eapply IH; [|exact H]. eauto.
  - inversion H; subst. repeat split; auto. rewrite Eb. discriminate.
Qed.

Lemma analyze_while (Q : env -> Prop) ng ctr sp f fuel c body e r :
  analyze ng ctr sp f fuel (SWhile c body) e = Some r -> Q e ->
  (forall e0 r0 eb, Q e0 -> analyze ng ctr sp f fuel body (cond_true c e0) = Some r0 -> a_env r0 = Some eb -> Q (join e0 eb)) ->
  exists einv rb et ef trc bc, Q einv /\ acond c einv = (et, ef, trc, bc) /\
    analyze ng ctr sp f fuel body et = Some rb /\ (forall eb, a_env rb = Some eb -> env_le eb einv) /\
    analyze ng ctr sp f fuel (SWhile c body) einv = Some r /\
    r = {| a_env := Some ef; a_trig := trc ++ a_trig rb; a_gsafe := bc && a_gsafe rb; a_rsafe := a_rsafe rb |}.
Proof.
  intros H HQ Hstep. cbn in H.
  destruct (loop_inv (analyze ng ctr sp f fuel body) c fuel e) as [[einv rb]|] eqn:El; [|discriminate].
  destruct (loop_inv_ind Q _ c Hstep _ _ _ _ HQ El) as [Hinv [Hb Hle]].
  destruct (acond c einv) as [[[et ef] trc] bc] eqn:Ec. exists einv, rb, et, ef, trc, bc.
  unfold cond_true in Hb. rewrite Ec in Hb. cbn [fst] in Hb. repeat split; auto.
  - intros eb E. apply env_leb_sound. auto.
  - destruct fuel as [|n]; [discriminate|]. cbn -[acond]. unfold cond_true. rewrite Ec. cbn [fst]. rewrite Hb.
    destruct (a_env rb) as [eb|]; [rewrite (Hle eb eq_refl)|]; now rewrite Ec.
  - now inversion H.
Qed.

Lemma analyze_func_inv ng fuel ctr sp f fd ts b : analyze_func ng fuel ctr sp f fd = Some (ts, b) ->
  exists r, analyze ng ctr sp f fuel (f_body fd) (entry_env f 0 (f_nparams fd)) = Some r /\ b = a_gsafe r /\
    ts = a_trig r ++ match a_env r with Some _ => [falloff f] | None => [] end.
Proof.
  unfold analyze_func. destruct (analyze _ _ _ _ _ _ _) as [r|]; [|discriminate]. intros H. inversion H; subst.
  exists r. repeat split. destruct (a_env r); [reflexivity | now rewrite app_nil_r].
Qed.

Lemma analyze_funcs_nth ng fuel ctr sp : forall fds f0 tss b,
  analyze_funcs ng fuel ctr sp f0 fds = Some (tss, b) ->
  forall i fd, nth_error fds i = Some fd ->
  exists t bi, analyze_func ng fuel ctr (sp (f0 + i)) (f0 + i) fd = Some (t, bi) /\ nth_error tss i = Some t /\ (b = true -> bi = true).
Proof.
  induction fds as [|fd0 fds IH]; intros f0 tss b H [|i] fd Hn; try discriminate; cbn in H, Hn;
    destruct (analyze_func ng fuel ctr (sp f0) f0 fd0) as [[t1 b1]|] eqn:E1; try discriminate;
    destruct (analyze_funcs ng fuel ctr sp (S f0) fds) as [[t2 b2]|] eqn:E2; try discriminate; inversion H; subst.
  - inversion Hn; subst. rewrite Nat.add_0_r. exists t1, b1. repeat split; auto. intros Hb. apply andb_true_iff in Hb. tauto.
  - destruct (IH _ _ _ E2 i fd Hn) as [t [bi [A1 [A2 A3]]]]. rewrite <- Nat.add_succ_comm.
    exists t, bi. repeat split; auto. intros Hb. apply andb_true_iff in Hb. tauto.
Qed.

Lemma dups_all_nth ctr sp tss : forall fds f0 i fd, nth_error fds i = Some fd ->
  nth_error (dups_all ctr sp tss f0 fds) i = Some (dups_of_caller ctr (sp (f0 + i)) tss fd).
Proof.
  induction fds as [|fd0 fds IH]; intros f0 [|i] fd Hn; try discriminate; cbn in Hn |- *.
  - inversion Hn; subst. now rewrite Nat.add_0_r.
  - rewrite <- Nat.add_succ_comm. now apply IH.
Qed.

Lemma dupt_in_dups_all ctr sp tss fds fc fdc g cs tg t :
  nth_error fds fc = Some fdc -> In (g, cs) (calls_of (f_body fdc)) -> ctr g = true -> sp fc g = true ->
  nth_error tss g = Some tg -> In t tg -> touches g t = true ->
  exists td, In td (dups_all ctr sp tss 0 fds) /\ In (dupt g cs t) td.
Proof.
  intros Hfc Hin Hcg Hsp Htg Ht Et. exists (dups_of_caller ctr (sp fc) tss fdc). split.
  - exact (nth_error_In _ _ (dups_all_nth ctr sp tss fds 0 fc fdc Hfc)).
  - apply in_flat_map. exists (g, cs). split; [exact Hin|]. cbn. rewrite Hcg, Hsp, (nth_error_nth _ _ _ Htg).
    apply in_map, filter_In. auto.
Qed.

Lemma ctr_local_nth ctr sp : forall fds f0 i fd, ctr_local ctr sp f0 fds = true -> nth_error fds i = Some fd ->
  forallb (fun gc => negb (ctr (fst gc)) || sp (f0 + i) (fst gc)) (calls_of (f_body fd)) = true.
Proof.
  induction fds as [|fd0 fds IH]; intros f0 [|i] fd H Hn; try discriminate; cbn in H, Hn; apply andb_true_iff in H as [H1 H2].
  - inversion Hn; subst. now rewrite Nat.add_0_r.
  - rewrite <- Nat.add_succ_comm. now apply IH.
Qed.

Lemma ctr_arity_nth ctr : forall fds f0 i fd, ctr_arity ctr f0 fds = true -> nth_error fds i = Some fd ->
  ctr (f0 + i) = true -> f_nparams fd = 1.
Proof.
  induction fds as [|fd0 fds IH]; intros f0 [|i] fd H Hn Hc; try discriminate; cbn in H, Hn; apply andb_true_iff in H as [H1 H2].
  - inversion Hn; subst. rewrite Nat.add_0_r in Hc. rewrite Hc in H1. now apply Nat.eqb_eq.
  - rewrite <- Nat.add_succ_comm in Hc. eauto.
Qed.

Lemma drop_safe_id rs sp : forall tss f, none_exempt rs sp f tss = true -> drop_safe rs sp f tss = tss.
Proof.
  induction tss as [|ts tss IH]; intros f H; cbn in *; auto. apply andb_true_iff in H as [H1 H2].
  now rewrite (IH _ H2), (filter_all _ _ H1).
Qed.

Lemma analyze_program_inv fuel ctr pk p r : analyze_program fuel ctr pk p = Some r ->
  let sp f g := Nat.eqb (pk f) (pk g) in
  let rs := rsafe_all (length (p_ginit p)) fuel ctr sp 0 (p_funcs p) in
  exists tss, analyze_funcs (length (p_ginit p)) fuel ctr sp 0 (p_funcs p) = Some (tss, r_gsafe r) /\
    r_decl r = decl_triggers 0 (p_ginit p) /\ r_funcs r = drop_safe rs sp 0 tss /\ r_nodel r = none_exempt rs sp 0 tss /\
    r_dups r = dups_all ctr sp tss 0 (p_funcs p) /\
    r_affil r = map (fun fd => flat_map (affil p) (convs_of (f_body fd)) ++ flat_map (iaffil p) (iconvs_of (f_body fd))) (p_funcs p) /\
    r_clocal r = ctr_local ctr sp 0 (p_funcs p).
Proof.
  unfold analyze_program. destruct (analyze_funcs _ _ _ _ _ _) as [[tss b]|]; [|discriminate].
  intros H. inversion H; subst. exists tss. cbn. repeat split.
Qed.

Lemma in_all_strigs r t : In t (all_strigs r) <->
  In t (r_decl r) \/ (exists tg, In tg (r_funcs r) /\ In t tg) \/ (exists tg, In tg (r_dups r) /\ In t tg) \/
  (exists tg, In tg (r_affil r) /\ In t tg).
Proof. unfold all_strigs. rewrite !in_app_iff, !in_concat. tauto. Qed.

Lemma wf_program_inv prog : wf_program prog = true ->
  (forall g fd, nth_error (p_funcs prog) g = Some fd -> stmt_ok prog (f_body fd) = true) /\
  (forall fd, nth_error (p_funcs prog) 0 = Some fd -> f_nparams fd = 0).
Proof.
  unfold wf_program. intros H. apply andb_true_iff in H as [Hok Hentry]. split.
  - intros g fd Hg. exact (forallb_nth (fun fd => stmt_ok prog (f_body fd)) _ _ _ Hok Hg).
  - intros fd E0. destruct (p_funcs prog); [discriminate|]. inversion E0; subst. now apply Nat.eqb_eq.
Qed.

(* the run-time meaning of a nonnil->nonnil contract: started with a non-nil argument (whatever the package-level
   variables hold and the opaque conditions answer), the function returns a non-nil value *)
Definition contract_true (prog : program) (fd : func) : Prop :=
  forall fuel gs oracle d, (forall x, sget gs (VL x) = VNil) ->
    match exec prog fuel (f_body fd) (bind_params 0 [VPtr d] ++ gs) oracle with
    | OReturn v _ _ => v <> VNil
    | ONormal _ _ => False
    | _ => True
    end.

Section Sound.
  Variable prog : program.
  Variable ctr : fname -> bool.
  Variable sp2 : fname -> fname -> bool.
  Variable ALLs : list strig.
  Let ALL := map etrig ALLs.
  Let C := csys_of [] [] ALL.
  Let ng := length (p_ginit prog).
  Hypothesis NoFlow : ~ has_flow C.

  (* a function runs either in its own right (None) or, when it has a contract, on behalf of one call site
     (Some cs): its triggers are then read through the duplication onto that call site *)
  Definition ssub (g : fname) (c : option nat) (s : asite) : asite :=
    match c with
    | Some cs => if asite_eqb s (SParam g 0) then SCallParam g cs else s
    | None => s
    end.
  Definition psub (g : fname) (c : option nat) (p : prod) : prod :=
    match p with PSite s => PSite (ssub g c s) | _ => p end.
  Definition rsub (g : fname) (c : option nat) (s : asite) : asite :=
    match c with
    | Some cs => if asite_eqb s (SResult g) then SCallResult g cs else s
    | None => s
    end.
  Definition inst (g : fname) (c : option nat) (t : strig) : strig :=
    match c with
    | Some cs => if touches g t then dupt g cs t else t
    | None => t
    end.
  Definition Has (g : fname) (c : option nat) (t : strig) : Prop := In (inst g c t) ALLs.

  Definition ctx_ok (g : fname) (c : option nat) : Prop :=
    match c with
    | None => True
    | Some cs => ctr g = true /\ exists fc fdc, nth_error (p_funcs prog) fc = Some fdc /\
                                  In (g, cs) (calls_of (f_body fdc)) /\ sp2 fc g = true
    end.

  Hypothesis FuncsOK : forall g fd c, nth_error (p_funcs prog) g = Some fd -> ctx_ok g c ->
    exists afuel r, analyze ng ctr (sp2 g) g afuel (f_body fd) (entry_env g 0 (f_nparams fd)) = Some r /\
      a_gsafe r = true /\ Forall (Has g c) (a_trig r) /\ (a_env r <> None -> Has g c (falloff g)).
  Hypothesis WF : forall g fd, nth_error (p_funcs prog) g = Some fd -> stmt_ok prog (f_body fd) = true.
  Hypothesis CtrTrue : forall g fd, ctr g = true -> nth_error (p_funcs prog) g = Some fd ->
    f_nparams fd = 1 /\ contract_true prog fd.
  Definition W (kj : nat * nat) : Prop := forall t, In t (affil prog kj) -> In t ALLs.
  Definition IW (kk : nat * nat) : Prop := forall t, In t (iaffil prog kk) -> In t ALLs.
  Definition calls_ok (g : fname) (st : stmt) : Prop :=
    (forall h cs, In (h, cs) (calls_of st) -> ctr h = true -> sp2 g h = true /\ ctx_ok h (Some cs)) /\
    (forall kj, In kj (convs_of st) -> W kj) /\
    (forall kk, In kk (iconvs_of st) -> IW kk).
  Hypothesis CallsOK : forall g fd, nth_error (p_funcs prog) g = Some fd -> calls_ok g (f_body fd).

  Definition nu (s : asite) : Prop := nilr C (enc s).
  (* what a producer says of the value in store st: may it be nil? (an unchecked result of an error-returning
     function: if its error -- a local -- is nil now, then the function's result site is nil-able) *)
  Definition nilS (st : store) (p : prod) : Prop :=
    match p with
    | PNil | PStale | PUng _ _ => True
    | PNever => False
    | PSite s => nu s
    | PGuard f _ xe => if is_glob xe then True else (sget st xe = VNil -> nu (SResult f))
    | PChecked f _ => nu (SResult f)
    end.
  (* what the trigger of a producer needs *)
  Definition nilK (p : prod) : Prop :=
    match kind_of p with KAlways => True | KNever => False | KCond k => nilr C k end.
  Definition may_nil (g : fname) (c : option nat) (st : store) (ps : aset) : Prop :=
    exists p, In p ps /\ nilS st (psub g c p).
  Definition respects (g : fname) (c : option nat) (s : store) (e : env) : Prop :=
    forall x, var_ok prog x = true -> sget s x = VNil -> may_nil g c s (aget e x).
  Definition GInv (s : store) : Prop := forall k, k < ng -> sget s (VG k) = VNil -> nu (SGlobal k).
  (* an interface value of type I_k holding an S_j: the methods of S_j are linked to those of I_k (a nil-able result
     of the implementation makes the interface method's result nil-able, a nil-able parameter of the interface method
     the implementation's), and S_j has them *)
  Definition L (k j : nat) : Prop := forall m np f fd, nth_error (isig prog k) m = Some np ->
    nth_error (nth j (p_impls prog) []) m = Some f -> nth_error (p_funcs prog) f = Some fd ->
    (nu (SResult f) -> nu (SIResult k m)) /\
    (forall i, S i < f_nparams fd -> nu (SIParam k m i) -> nu (SParam f (S i))).
  Definition Conf (k j : nat) : Prop := forall m np, nth_error (isig prog k) m = Some np ->
    exists f fd, nth_error (nth j (p_impls prog) []) m = Some f /\ nth_error (p_funcs prog) f = Some fd /\ f_nparams fd = S np.
  Definition Vok (v : value) : Prop := forall k j, v = VPtr (Some (k, j)) -> L k j /\ Conf k j.
  Definition DInv (s : store) : Prop := forall x, Vok (sget s x).
  Definition SInv (s : store) : Prop := GInv s /\ DInv s.
  Definition Inv (g : fname) (c : option nat) (s : store) (e : env) : Prop := respects g c s e /\ SInv s.
  (* what a nil result means for the caller: the result site as the context shows it is nil-able, provided the
     controller of the duplicated return triggers is *)
  Definition ctl_on (g : fname) (c : option nat) : Prop := forall cs, c = Some cs -> nu (SCallParam g cs).
  Definition ret_ok (g : fname) (c : option nat) : Prop := ctl_on g c -> nu (rsub g c (SResult g)).

  Lemma ret_ok_plain g : ret_ok g None -> nu (SResult g).
  Proof. intros H. apply H. intros cs E. discriminate. Qed.
  Lemma ret_ok_site g cs : ret_ok g (Some cs) -> nu (SCallParam g cs) -> nu (SCallResult g cs).
  Proof.
    intros H Hp. replace (SCallResult g cs) with (rsub g (Some cs) (SResult g)) by (cbn; now rewrite Nat.eqb_refl).
    apply H. intros cs0 E. now inversion E; subst.
  Qed.

  Lemma ssub_other g c s : s <> SParam g 0 -> ssub g c s = s.
  Proof.
    intros H. destruct c as [cs|]; cbn; auto. destruct (asite_eqb s (SParam g 0)) eqn:E; auto.
    apply asite_eqb_eq in E. contradiction.
  Qed.
  Lemma ssub_param0 g cs : ssub g (Some cs) (SParam g 0) = SCallParam g cs.
  Proof. cbn. now rewrite Nat.eqb_refl. Qed.
  Lemma psub_stale g c p : psub g c p = PStale <-> p = PStale.
  Proof. destruct p; cbn; split; auto; discriminate. Qed.
  Lemma psub_kind g c p : kind_of p = KAlways -> kind_of (psub g c p) = KAlways.
  Proof. now destruct p. Qed.
  Lemma psub_kill g c x p : psub g c (kill_guard x p) = kill_guard x (psub g c p).
  Proof. destruct p as [| |s| |f cs y|f cs|f cs]; cbn; auto. now destruct (var_eqb y x). Qed.
  Lemma psub_check g c x p : psub g c (check_guard x p) = check_guard x (psub g c p).
  Proof. destruct p as [| |s| |f cs y|f cs|f cs]; cbn; auto. now destruct (var_eqb y x && negb (is_glob y)). Qed.
  Lemma rsub_other g c s : asite_eqb s (SResult g) = false -> rsub g c s = s.
  Proof. intros H. destruct c; cbn; auto. now rewrite H. Qed.

  Lemma nilS_nilK st p : nilS st p -> p <> PStale -> nilK p.
  Proof. destruct p; cbn; auto; try contradiction. Qed.

  Lemma inst_mk g c id p k :
    inst g c (mk_trigger id p k) =
    {| s_id := id; s_prod := psub g c p;
       s_cons := match k with CSite s => CSite (rsub g c s) | CAlways => CAlways end;
       s_ctrl := match c, k with
                 | Some cs, CSite s => if asite_eqb s (SResult g) then Some (SCallParam g cs) else None
                 | _, _ => None
                 end |}.
  Proof.
    destruct c as [cs|]; cbn; [|destruct p, k; reflexivity].
    unfold touches, dupt, is_param_prod, is_res_cons. cbn.
    destruct p as [| |s0| | | |], k as [|s]; cbn; try reflexivity;
      try destruct (asite_eqb s0 (SParam g 0)); try destruct (asite_eqb s (SResult g)); reflexivity.
  Qed.

  Lemma act_trig t a : In t ALLs -> (forall k, s_ctrl t = Some k -> nu k) -> In a (atoms_of_trigger (etrig t)) -> act C a.
  Proof.
    intros Ht Hk Ha. destruct (s_ctrl t) as [k|] eqn:E.
    - right. exists (enc k). split; [|now apply Hk]. apply In_ctld_csys_of. exists (etrig t).
      repeat split; [now apply in_map | cbn; now rewrite E | exact Ha].
    - left. apply In_base_csys_of. right. right. exists (etrig t).
      repeat split; [now apply in_map | cbn; now rewrite E | exact Ha].
  Qed.

  Lemma tsite g c id p s : Has g c (mk_trigger id p (CSite s)) -> nilK (psub g c p) ->
    (asite_eqb s (SResult g) = true -> ctl_on g c) -> nu (rsub g c s).
  Proof.
    unfold Has. rewrite inst_mk. intros Ht Hn Hctl.
    assert (A : forall a, In a (atom_of_kinds id (kind_of (psub g c p)) (KCond (enc (rsub g c s)))) -> act C a).
    { intros a Ha. eapply act_trig; [exact Ht| |exact Ha]. cbn. intros k Hk. destruct c as [cs|]; [|discriminate].
      destruct (asite_eqb s (SResult g)) eqn:E; [|discriminate]. inversion Hk; subst. now apply Hctl. }
    unfold nilK in Hn. destruct (kind_of (psub g c p)) as [| |q]; try contradiction.
    - apply act_src_nilr, A. now left.
    - eapply act_edge_nilr; [apply A; now left | exact Hn].
  Qed.
  Lemma tsite_ret g c id p : Has g c (mk_trigger id p (CSite (SResult g))) -> nilK (psub g c p) -> ret_ok g c.
  Proof. intros Ht Hn Hc. eapply tsite; eauto. Qed.
  (* sites other than the function's own result are never controlled *)
  Lemma tsite_plain g c id p s : Has g c (mk_trigger id p (CSite s)) -> nilK (psub g c p) ->
    asite_eqb s (SResult g) = false -> nu s.
  Proof. intros Ht Hn Hne. rewrite <- (rsub_other g c s Hne). eapply tsite; eauto. congruence. Qed.

  Lemma tderef g c id p : Has g c (mk_trigger id p CAlways) -> nilK (psub g c p) -> False.
  Proof.
    unfold Has. rewrite inst_mk. intros Ht Hn. apply NoFlow.
    assert (A : forall a, In a (atom_of_kinds id (kind_of (psub g c p)) KAlways) -> act C a).
    { intros a Ha. eapply act_trig; [exact Ht| |exact Ha]. cbn. intros k Hk. destruct c; discriminate. }
    unfold nilK in Hn. destruct (kind_of (psub g c p)) as [| |q]; try contradiction.
    - left. exists id. apply A. now left.
    - right. exists q. split; auto. apply nn_snk, A. now left.
  Qed.

  Lemma edge_plain p c : In (mk_trigger 0 (PSite p) (CSite c)) ALLs -> nu p -> nu c.
  Proof. intros Ht. eapply act_edge_nilr, act_trig; [exact Ht | intros k E; discriminate | now left]. Qed.

  (* a use of a value that may be nil: the producers that are turned into triggers are norm ps, and one of them fires *)
  Lemma use_witness g c st ps id k :
    Forall (Has g c) (map (fun q => mk_trigger id q k) (norm ps)) -> use_ok ps = true -> may_nil g c st ps ->
    exists q, Has g c (mk_trigger id q k) /\ nilK (psub g c q).
  Proof.
    rewrite Forall_map, Forall_forall. intros Hall Hu [p [Hp Hn]].
    destruct (norm_keep ps p Hp) as [Hin|[f [cs [q [-> [Hq Hk]]]]]].
    - exists p. split; auto. eapply nilS_nilK; eauto. rewrite psub_stale. exact (use_ok_in ps p Hu Hp).
    - exists q. split; auto. unfold nilK. now rewrite (psub_kind g c q Hk).
  Qed.
  Lemma use_ret g c st ps id :
    Forall (Has g c) (map (fun q => mk_trigger id q (CSite (SResult g))) (norm ps)) ->
    use_ok ps = true -> may_nil g c st ps -> ret_ok g c.
  Proof. intros Hall Hu Hn. destruct (use_witness _ _ _ _ _ _ Hall Hu Hn) as [q [Hq Hk]]. eapply tsite_ret; eauto. Qed.
  Lemma use_plain g c st ps id s :
    Forall (Has g c) (map (fun q => mk_trigger id q (CSite s)) (norm ps)) ->
    use_ok ps = true -> may_nil g c st ps -> asite_eqb s (SResult g) = false -> nu s.
  Proof. intros Hall Hu Hn. destruct (use_witness _ _ _ _ _ _ Hall Hu Hn) as [q [Hq Hk]]. eapply tsite_plain; eauto. Qed.
  Lemma use_deref g c st ps id :
    Forall (Has g c) (map (fun q => mk_trigger id q CAlways) (norm ps)) -> use_ok ps = true -> may_nil g c st ps -> False.
  Proof. intros Hall Hu Hn. destruct (use_witness _ _ _ _ _ _ Hall Hu Hn) as [q [Hq Hk]]. eapply tderef; eauto. Qed.

  Lemma Inv_le g c s e1 e2 : Inv g c s e1 -> env_le e1 e2 -> Inv g c s e2.
  Proof. intros [H HS] Hle. split; auto. intros x Hok Hx. destruct (H x Hok Hx) as [p [Hp Hn]]. exists p. split; auto. Qed.

  Lemma Vok_nil : Vok VNil.
  Proof. intros k j E. discriminate. Qed.
  Lemma Vok_plain : Vok (VPtr None).
  Proof. intros k j E. discriminate. Qed.
  Lemma Vok_atom s a : DInv s -> Vok (eval_atom s a).
  Proof. intros H. destruct a; cbn; [apply Vok_nil | apply Vok_plain | apply H]. Qed.
  Lemma Vok_atoms s args : DInv s -> Forall Vok (map (eval_atom s) args).
  Proof. intros H. apply Forall_map, Forall_forall. intros a _. now apply Vok_atom. Qed.

  Lemma DInv_sset s x v : DInv s -> Vok v -> DInv (sset s x v).
  Proof. intros H Hv y. rewrite sget_sset. destruct (var_eqb x y); auto. Qed.
  Lemma SInv_local s i v : SInv s -> Vok v -> SInv (sset s (VL i) v).
  Proof. intros [HG HD] Hv. split; [|now apply DInv_sset]. intros k Hk Hx. rewrite sget_sset in Hx. cbn in Hx. auto. Qed.

  Lemma nilS_kill g c s x v p : nilS s (psub g c p) -> nilS (sset s x v) (psub g c (kill_guard x p)).
  Proof.
    rewrite psub_kill. destruct (psub g c p) as [| |q| |f cs y|f cs|f cs]; cbn; auto.
    destruct (var_eqb y x) eqn:E; cbn; auto. destruct (is_glob y); auto.
    assert (E' : var_eqb x y = false).
    { apply var_eqb_neq. intros ->. rewrite var_eqb_refl in E. discriminate. }
    now rewrite E'.
  Qed.

  Lemma may_nil_kill g c s x v ps : may_nil g c s ps -> may_nil g c (sset s x v) (map (kill_guard x) ps).
  Proof. intros [p [Hp Hn]]. exists (kill_guard x p). split; [now apply in_map | now apply nilS_kill]. Qed.

  (* x := v, where the producers a describe v; a nil written into a package-level variable is a use at its site *)
  Lemma inv_assign g c s e x v a : Inv g c s e -> Vok v ->
    (v = VNil -> may_nil g c s a /\ Forall (Has g c) (store_triggers x (norm a)) /\ use_ok a || negb (is_glob x) = true) ->
    Inv g c (sset s x v) (aputk e x a).
  Proof.
    intros [H [HG HD]] Hvok Hv. split; [|split; [|now apply DInv_sset]].
    - intros y Hok Hy. rewrite aget_aputk. apply may_nil_kill. rewrite sget_sset in Hy.
      destruct (var_eqb x y); [exact (proj1 (Hv Hy)) | exact (H y Hok Hy)].
    - intros k Hk Hy. rewrite sget_sset in Hy. destruct (var_eqb x (VG k)) eqn:E; auto.
      apply var_eqb_eq in E. subst x. destruct (Hv Hy) as [Hn [Hst Hu]].
      cbn in Hu. rewrite orb_false_r in Hu. exact (use_plain g c s a 0 (SGlobal k) Hst Hu Hn eq_refl).
  Qed.

  Lemma eval_atom_nil g c s e a : atom_ok prog a = true -> Inv g c s e -> eval_atom s a = VNil ->
    may_nil g c s (prods_of_atom e a).
  Proof.
    intros Hok [H _] Hv. destruct a as [| |x]; cbn in *; [|discriminate|auto].
    exists PNil. split; [now left | exact I].
  Qed.

  Lemma Inv_nonnil g c s e x : Inv g c s e -> sget s x <> VNil -> Inv g c s (aput e x [PNever]).
  Proof.
    intros [H HS] Hx. split; auto. intros y Hok Hy. rewrite aget_aput. destruct (var_eqb x y) eqn:E; auto.
    apply var_eqb_eq in E; subst. congruence.
  Qed.

  Lemma Inv_checked g c s e x : Inv g c s e -> sget s x = VNil -> Inv g c s (env_map (check_guard x) e).
  Proof.
    intros [H HS] Hx. split; auto. intros y Hok Hy. destruct (H y Hok Hy) as [p [Hp Hn]].
    rewrite aget_env_map by (apply check_dflt). exists (check_guard x p). split; [now apply in_map|].
    rewrite psub_check. destruct (psub g c p) as [| |q| |f cs z|f cs|f cs]; cbn in *; auto.
    destruct (var_eqb z x) eqn:E; cbn; auto. destruct (is_glob z) eqn:Gz; cbn; auto; [now rewrite Gz|].
    apply var_eqb_eq in E. subst. auto.
  Qed.

  Lemma acond_sound g c0 c : forall e et ef tr s oracle,
    acond c e = (et, ef, tr, true) -> Forall (Has g c0) tr -> cond_ok prog c = true -> Inv g c0 s e ->
    match eval_cond s c oracle with
    | CVal b _ => Inv g c0 s (if b then et else ef)
    | CPanic _ => False
    end.
  Proof.
    induction c as [|x|d x|c IH|c1 c2 IH1 IH2|c1 c2 IH] using cond_ind_or; intros e et ef tr s oracle;
      [| | | | |rewrite acond_or, eval_cond_or; apply IH]; intros Ha Hall Hok Hr; cbn in Ha, Hok |- *.
    - inversion Ha; subst. destruct (ask oracle) as [b o]. now destruct b.
    - inversion Ha; subst. destruct (sget s x) eqn:E; [now apply Inv_checked | apply Inv_nonnil; congruence].
    - inversion Ha as [[E1 E2 E3 Hu]]; subst. destruct (sget s x) eqn:E.
      + exact (use_deref g c0 s _ d Hall Hu (proj1 Hr x Hok E)).
      + destruct (ask oracle) as [b o]. now destruct b.
    - destruct (acond c e) as [[[et1 ef1] tr1] b1] eqn:E1. inversion Ha; subst.
      specialize (IH e ef et tr s oracle E1 Hall Hok Hr). destruct (eval_cond s c oracle) as [b o|d]; auto.
      now destruct b.
    - apply andb_true_iff in Hok as [Hok1 Hok2].
      destruct (acond c1 e) as [[[et1 ef1] tr1] b1] eqn:E1. destruct (acond c2 et1) as [[[et2 ef2] tr2] b2] eqn:E2.
      inversion Ha as [[Ea Eb Ec Hb]]; subst. apply andb_true_iff in Hb as [-> ->]. apply Forall_app in Hall as [Ha1 Ha2].
      specialize (IH1 e et1 ef1 tr1 s oracle E1 Ha1 Hok1 Hr). destruct (eval_cond s c1 oracle) as [b o|d]; auto.
      destruct b; [|eapply Inv_le; [exact IH1|apply join_le_l]].
      specialize (IH2 et1 et ef2 tr2 s o E2 Ha2 Hok2 IH1). destruct (eval_cond s c2 o) as [b' o'|d]; auto.
      destruct b'; auto. eapply Inv_le; [exact IH2|apply join_le_r].
  Qed.

  Lemma arg_site g c s e (sf : nat -> asite) args i a :
    Inv g c s e -> Forall (Has g c) (arg_triggers e sf 0 args) ->
    forallb (atom_ok prog) args = true -> forallb (fun a => use_ok (prods_of_atom e a)) args = true ->
    asite_eqb (sf i) (SResult g) = false ->
    nth_error args i = Some a -> eval_atom s a = VNil -> nu (sf i).
  Proof.
    intros HI Hargs Hoks Hus Hsf Ea Hv.
    apply (use_plain g c s (prods_of_atom e a) 0 (sf i)); [| | |exact Hsf].
    - exact (arg_triggers_nth _ e sf args 0 i a Hargs Ea).
    - exact (forallb_nth (fun a => use_ok (prods_of_atom e a)) _ _ _ Hus Ea).
    - exact (eval_atom_nil g c s e a (forallb_nth _ _ _ _ Hoks Ea) HI Hv).
  Qed.

  Lemma callee_entry h c' s vs n : SInv s -> Forall Vok vs -> length vs = n ->
    (forall i, nth_error vs i = Some VNil -> nu (ssub h c' (SParam h i))) ->
    Inv h c' (bind_params 0 vs ++ globals_of s) (entry_env h 0 n).
  Proof.
    intros [HG HD] Hvs Hlen Hnil. split; [|split].
    - intros x Hok Hx. rewrite sget_callee in Hx. rewrite aget_entry. destruct x as [i|k].
      + destruct (Nat.ltb_spec i n) as [Hi|Hi].
        * exists (PSite (SParam h i)). split; [now left|]. cbn [psub nilS].
          destruct (nth_error vs i) as [v|] eqn:En; [subst v; now apply Hnil | apply nth_error_None in En; lia].
        * exists PNil. split; [now left | exact I].
      + exists (PSite (SGlobal k)). split; [now left|].
        cbn [psub nilS]. rewrite ssub_other by discriminate. apply HG; auto. now apply Nat.ltb_lt.
    - intros k Hk Hx. rewrite sget_callee in Hx. auto.
    - intros x. rewrite sget_callee. destruct x as [i|k]; [|apply HD].
      destruct (nth_error vs i) as [v|] eqn:En; [|apply Vok_nil]. eapply Forall_forall; [exact Hvs|]. eapply nth_error_In; eauto.
  Qed.

  Lemma after_call g c s s' e : Inv g c s e -> SInv s' -> Inv g c (globals_of s' ++ locals_of s) (mark_stale ng e).
  Proof.
    intros [Hr [_ HD]] [HG' HD']. split; [|split].
    - intros x Hok Hx. rewrite sget_after in Hx. rewrite aget_mark_stale. destruct x as [i|k]; cbn in Hx.
      + destruct (Hr (VL i) Hok Hx) as [p [Hp Hn]]. exists p. split; auto. revert Hn.
        destruct (psub g c p) as [| |q| |f cs y|f cs|f cs]; cbn; auto. rewrite sget_after. destruct (is_glob y); auto.
      + assert (Hk : Nat.ltb k ng = true) by exact Hok. rewrite Hk. apply Nat.ltb_lt in Hk. destruct (fresh e k) eqn:F; cbn [andb negb].
        * exists (PSite (SGlobal k)). split.
          -- now apply prod_in.
          -- cbn [psub nilS]. rewrite ssub_other by discriminate. apply HG'; auto.
        * exists PStale. split; [now left | exact I].
    - intros k Hk Hx. rewrite sget_after in Hx. auto.
    - intros x. rewrite sget_after. destruct (is_glob x); auto.
  Qed.

  Lemma result_assigned g c s e s' x v site :
    Inv g c s e -> SInv s' -> Vok v -> (v = VNil -> nu site) -> site <> SParam g 0 ->
    Forall (Has g c) (match x with Some y => store_triggers y [PSite site] | None => [] end) ->
    Inv g c (oset (globals_of s' ++ locals_of s) x v)
            (match x with Some y => aputk (mark_stale ng e) y [PSite site] | None => mark_stale ng e end).
  Proof.
    intros HI HS' Hv Hnil Hne Hst. pose proof (after_call g c s s' e HI HS') as A. destruct x as [y|]; [|exact A].
    apply inv_assign; auto. intros E. split; [|split; [exact Hst | reflexivity]].
    exists (PSite site). split; [now left|]. cbn [psub nilS]. rewrite ssub_other by exact Hne. exact (Hnil E).
  Qed.

  Lemma may_nil_okill g c s x v ps : may_nil g c s ps -> may_nil g c (oset s x v) (map (okill x) ps).
  Proof. destruct x; [apply may_nil_kill | now rewrite map_id]. Qed.
  Lemma SInv_oset_local s x v : (forall y, x = Some y -> is_glob y = false) -> SInv s -> Vok v -> SInv (oset s x v).
  Proof. intros Hx HS Hv. destruct x as [[i|k]|]; auto; [now apply SInv_local | discriminate (Hx _ eq_refl)]. Qed.

  Lemma result2_assigned g c s e s' cs x xe h v ev :
    Inv g c s e -> SInv s' -> Vok v -> Vok ev -> (v = VNil -> ev = VNil -> nu (SResult h)) ->
    (forall y, x = Some y -> is_glob y = false /\ is_target xe y = false) -> (forall y, xe = Some y -> is_glob y = false) ->
    Inv g c (oset (oset (globals_of s' ++ locals_of s) x v) xe ev) (call2_env ng e cs x xe h).
  Proof.
    intros HI HS' Hv Hev Hret Hx Hxe. destruct (after_call g c s s' e HI HS') as [Hr HS1].
    set (s1 := globals_of s' ++ locals_of s) in *. split.
    - intros z Hok Hz. rewrite aget_call2_env. rewrite !sget_oset in Hz.
      destruct (is_target x z) eqn:Ex.
      + destruct x as [y|]; [|discriminate]. apply var_eqb_eq in Ex. subst z.
        destruct (Hx y eq_refl) as [_ Nye]. rewrite Nye in Hz.
        destruct xe as [ye|]; eexists; (split; [now left|]); cbn; auto.
        rewrite (Hxe ye eq_refl), var_eqb_refl. auto.
      + destruct (is_target xe z) eqn:Exe.
        * exists PStale. split; [now left | exact I].
        * do 2 apply may_nil_okill. exact (Hr z Hok Hz).
    - apply SInv_oset_local; [exact Hxe | | exact Hev]. apply SInv_oset_local; auto. intros y E. apply (Hx y E).
  Qed.

  Lemma calls_ok_sub g st st' :
    incl (calls_of st') (calls_of st) -> incl (convs_of st') (convs_of st) -> incl (iconvs_of st') (iconvs_of st) ->
    calls_ok g st -> calls_ok g st'.
  Proof. intros I1 I2 I3 [H1 [H2 H3]]. split; [|split]; intros ? **; [eapply H1 | apply H2 | apply H3]; eauto. Qed.
  Lemma calls_ok_seq g a b : calls_ok g (SSeq a b) -> calls_ok g a /\ calls_ok g b.
  Proof.
    intros H. split; (eapply calls_ok_sub; [| | |exact H]); cbn; auto using incl_appl, incl_appr, incl_refl.
  Qed.

  Lemma W_result k j m np f fd : W (k, j) -> nth_error (isig prog k) m = Some np ->
    nth_error (nth j (p_impls prog) []) m = Some f ->
    nth_error (p_funcs prog) f = Some fd -> nu (SResult f) -> nu (SIResult k m).
  Proof. intros HW Hs Hm Hf. apply edge_plain, HW. eapply affil_in; eauto. now left. Qed.
  Lemma W_param k j m np f fd i : W (k, j) -> nth_error (isig prog k) m = Some np ->
    nth_error (nth j (p_impls prog) []) m = Some f ->
    nth_error (p_funcs prog) f = Some fd -> S i < f_nparams fd -> nu (SIParam k m i) -> nu (SParam f (S i)).
  Proof.
    intros HW Hs Hm Hf Hi. apply edge_plain, HW. eapply affil_in; eauto. right.
    apply in_map_iff. exists i. split; auto. apply in_seq_from. lia.
  Qed.

  Lemma W_L k j : W (k, j) -> L k j.
  Proof. intros HW m np f fd Hs Hm Hf. split; [eapply W_result | intros i Hi; eapply W_param]; eauto. Qed.

  Lemma conform_Conf k j : conform prog k j = true -> Conf k j.
  Proof. intros H m np Hn. eapply conform_from_spec; eauto. Qed.

  Lemma IW_L k k2 j : IW (k, k2) -> prefix_b (isig prog k) (isig prog k2) = true -> L k2 j -> Conf k2 j -> L k j /\ Conf k j.
  Proof.
    intros HI Hp HL HC. split; [|intros m np Hs; apply HC; eapply prefix_b_spec; eauto].
    intros m np f fd Hs Hm Hf. pose proof (prefix_b_spec _ _ _ _ Hp Hs) as Hs2.
    destruct (HL m np f fd Hs2 Hm Hf) as [Lr Lp]. destruct (HC m np Hs2) as [f' [fd' [Hm' [Hf' Hnp]]]].
    assert (f' = f) by congruence. subst f'. assert (fd' = fd) by congruence. subst fd'.
    assert (Hin : forall t, In t (ilink_method k k2 m np) -> In t ALLs) by (intros t Ht; eapply HI, iaffil_in; eauto).
    split.
    - intros Hn. eapply edge_plain; [apply Hin; now left | auto].
    - intros i Hi Hn. apply Lp; auto. eapply edge_plain; [|exact Hn]. apply Hin. right.
      apply in_map_iff. exists i. split; auto. apply in_seq_from. lia.
  Qed.

  (* a function g in context c handed (v, ev) back, leaving the store s': a nil value with a nil error makes its result
     nil-able *)
  Definition returned (g : fname) (c : option nat) (v ev : value) (s' : store) : Prop :=
    (v = VNil -> ev = VNil -> ret_ok g c) /\ SInv s' /\ Vok v.
  (* an outcome against the analysis result o (the environment after the statement, None: no fall-through) *)
  Definition post (g : fname) (c : option nat) (o : option env) (out : outcome) : Prop :=
    match out with
    | ONormal s' _ => match o with Some e' => Inv g c s' e' | None => False end
    | OReturn v s' _ => returned g c v (sget s' VERR) s'
    | OPanic _ => False
    | OOutOfFuel => True
    end.
  Definition sound_for (fuel : nat) (st : stmt) : Prop := forall afuel g c s oracle e r,
    analyze ng ctr (sp2 g) g afuel st e = Some r -> a_gsafe r = true -> Forall (Has g c) (a_trig r) ->
    stmt_ok prog st = true -> calls_ok g st -> Inv g c s e ->
    post g c (a_env r) (exec prog fuel st s oracle).

  Lemma post_join g c o1 o2 out : post g c o1 out \/ post g c o2 out -> post g c (join_opt o1 o2) out.
  Proof.
    destruct out; cbn; try tauto. destruct o1 as [e1|], o2 as [e2|]; cbn; try tauto.
    intros [H|H]; (eapply Inv_le; [exact H|]); [apply join_le_l | apply join_le_r].
  Qed.

  Lemma sound_skip fuel : sound_for (S fuel) SSkip.
  Proof. intros afuel g c s oracle e r Han _ _ _ _ HI. inversion Han; subst. exact HI. Qed.

  Lemma sound_seq fuel s1 s2 : sound_for fuel s1 -> sound_for fuel s2 -> sound_for (S fuel) (SSeq s1 s2).
  Proof.
    intros IH1 IH2 afuel g c s oracle e r Han Hg Hall Hok Hcalls HI. cbn in Han, Hok. cbn [exec].
    apply andb_true_iff in Hok as [Hc1 Hc2]. apply calls_ok_seq in Hcalls as [Hk1 Hk2].
    destruct (analyze ng ctr (sp2 g) g afuel s1 e) as [r1|] eqn:E1; [|discriminate].
    destruct (a_env r1) as [e1|] eqn:Ee1.
    - destruct (analyze ng ctr (sp2 g) g afuel s2 e1) as [r2|] eqn:E2; [|discriminate].
      inversion Han; subst r; clear Han. cbn in Hg, Hall |- *.
      apply andb_true_iff in Hg as [Hg1 Hg2]. apply Forall_app in Hall as [Ha1 Ha2].
      pose proof (IH1 afuel g c s oracle e r1 E1 Hg1 Ha1 Hc1 Hk1 HI) as R. rewrite Ee1 in R.
      destruct (exec prog fuel s1 s oracle) as [s' o'|v s' o'|d|]; auto.
      exact (IH2 afuel g c s' o' e1 r2 E2 Hg2 Ha2 Hc2 Hk2 R).
    - inversion Han; subst r1; clear Han.
      pose proof (IH1 afuel g c s oracle e r E1 Hg Hall Hc1 Hk1 HI) as R. rewrite Ee1 in R |- *.
      destruct (exec prog fuel s1 s oracle); auto. destruct R.
  Qed.

  Lemma sound_assign fuel x a : sound_for (S fuel) (SAssign x a).
  Proof.
    intros afuel g c s oracle e r Han Hg Hall Hok _ HI. inversion Han; subst r; clear Han. cbn in Hg, Hall, Hok |- *.
    apply andb_true_iff in Hok as [_ Ha]. apply inv_assign; [exact HI | apply Vok_atom, HI | ].
    intros Hv. repeat split; auto. eapply eval_atom_nil; eauto.
  Qed.

  Lemma sound_conv fuel x k j : sound_for (S fuel) (SConv x k j).
  Proof.
    intros afuel g c s oracle e r Han _ _ Hok Hcalls HI. inversion Han; subst r; clear Han. cbn in Hok |- *.
    apply andb_true_iff in Hok as [_ Hconf]. apply inv_assign; [exact HI | | discriminate].
    intros k' j' E. inversion E; subst. split; [|now apply conform_Conf].
    apply W_L, (proj1 (proj2 Hcalls)). now left.
  Qed.

  Lemma sound_convi fuel x y k k2 : sound_for (S fuel) (SConvI x y k k2).
  Proof.
    intros afuel g c s oracle e r Han Hg Hall Hok Hcalls HI. inversion Han; subst r; clear Han. cbn in Hg, Hall, Hok |- *.
    apply andb_true_iff in Hok as [Hok Hpre]. apply andb_true_iff in Hok as [_ Hy].
    assert (Step : forall v, (v = VNil -> sget s y = VNil) -> Vok v -> Inv g c (sset s x v) (aputk e x (aget e y))).
    { intros v Hv Hvok. apply inv_assign; auto. intros E. repeat split; auto. apply (eval_atom_nil g c s e (AVar y)); auto. }
    destruct (sget s y) as [|[[k' j]|]] eqn:Ey; cbn; auto; [apply Step; auto using Vok_nil|].
    destruct (Nat.eqb k2 k') eqn:Ek; cbn; auto. apply Nat.eqb_eq in Ek. subst k'.
    apply Step; [discriminate|]. intros k0 j0 E. inversion E; subst.
    destruct (proj2 (proj2 HI) y k2 j0 Ey) as [HL HC]. eapply IW_L; eauto. apply (proj2 (proj2 Hcalls)). now left.
  Qed.

  Lemma sound_deref fuel d x : sound_for (S fuel) (SDeref d x).
  Proof.
    intros afuel g c s oracle e r Han Hg Hall Hok _ HI. inversion Han; subst r; clear Han. cbn in Hg, Hall, Hok |- *.
    destruct (sget s x) eqn:E; [|exact HI]. exact (use_deref g c s _ d Hall Hg (proj1 HI x Hok E)).
  Qed.

  Lemma sound_if fuel cd s1 s2 : sound_for fuel s1 -> sound_for fuel s2 -> sound_for (S fuel) (SIf cd s1 s2).
  Proof.
    intros IH1 IH2 afuel g c s oracle e r Han Hg Hall Hok Hcalls HI. cbn in Han, Hok. cbn [exec].
    destruct (acond cd e) as [[[et ef] trc] bc] eqn:Ec.
    destruct (analyze ng ctr (sp2 g) g afuel s1 et) as [r1|] eqn:E1; [|discriminate].
    destruct (analyze ng ctr (sp2 g) g afuel s2 ef) as [r2|] eqn:E2; [|discriminate].
    inversion Han; subst r; clear Han. cbn in Hg, Hall |- *.
    apply andb_true_iff in Hg as [Hg Hg2]. apply andb_true_iff in Hg as [-> Hg1].
    apply Forall_app in Hall as [Hac Hall]. apply Forall_app in Hall as [Ha1 Ha2].
    apply andb_true_iff in Hok as [Hok Hc2]. apply andb_true_iff in Hok as [Hcok Hc1].
    (* the calls and conversions of SIf cd s1 s2 are, by computation, those of SSeq s1 s2 *)
    destruct (calls_ok_seq g s1 s2 Hcalls) as [Hk1 Hk2].
    pose proof (acond_sound g c cd e et ef trc s oracle Ec Hac Hcok HI) as HI'.
    destruct (eval_cond s cd oracle) as [b o'|d]; auto. destruct b.
    - apply post_join. left. exact (IH1 afuel g c s o' et r1 E1 Hg1 Ha1 Hc1 Hk1 HI').
    - apply post_join. right. exact (IH2 afuel g c s o' ef r2 E2 Hg2 Ha2 Hc2 Hk2 HI').
  Qed.

  (* the iteration re-enters the loop at the invariant environment, from which the analysis gives the same result *)
  Lemma sound_while fuel cd body : sound_for fuel body -> sound_for fuel (SWhile cd body) -> sound_for (S fuel) (SWhile cd body).
  Proof.
    intros IHb IHw afuel g c s oracle e r Han Hg Hall Hok Hcalls HI. cbn [exec].
    destruct (analyze_while (env_le e) _ _ _ _ _ _ _ _ _ Han (env_le_refl e))
      as [einv [rb [et [ef [trc [bc [Hle [Ec [Eb [Hback [Hw Er]]]]]]]]]]].
    { intros e0 r0 eb H0 _ _. eapply env_le_trans; [exact H0 | apply join_le_l]. }
    pose proof Hg as Hg'. pose proof Hall as Hall'. rewrite Er in Hg', Hall' |- *. cbn in Hg', Hall', Hok |- *.
    apply andb_true_iff in Hg' as [-> Hgb]. apply Forall_app in Hall' as [Hac Hab].
    apply andb_true_iff in Hok as [Hcok Hbok].
    pose proof (acond_sound g c cd einv et ef trc s oracle Ec Hac Hcok (Inv_le _ _ _ _ _ HI Hle)) as HI'.
    destruct (eval_cond s cd oracle) as [b o'|d]; auto. destruct b; [|exact HI'].
    (* Hcalls serves for the body: the calls and conversions of SWhile cd body are, by computation, those of body *)
    pose proof (IHb afuel g c s o' et rb Eb Hgb Hab Hbok Hcalls HI') as R.
    destruct (exec prog fuel body s o') as [s' o''|v s' o''|d|]; auto.
    destruct (a_env rb) as [eb|] eqn:Eeb; [|contradiction].
    pose proof (IHw afuel g c s' o'' einv r Hw Hg Hall) as R2. rewrite Er in R2. apply R2; auto.
    - cbn. now rewrite Hcok, Hbok.
    - eapply Inv_le; [exact R | auto].
  Qed.

  Lemma sound_return fuel a : sound_for (S fuel) (SReturn a).
  Proof.
    intros afuel g c s oracle e r Han Hg Hall Hok _ HI. inversion Han; subst r; clear Han. cbn in Hg, Hall, Hok |- *.
    split; [|split; [apply SInv_local; [apply HI | apply Vok_nil] | apply Vok_atom, HI]].
    intros Hv _. exact (use_ret g c s _ 0 Hall Hg (eval_atom_nil g c s e a Hok HI Hv)).
  Qed.

  (* return a, er: either the error is known non-nil here, or the value is a use at the result site *)
  Lemma sound_return2 fuel a er : sound_for (S fuel) (SReturn2 a er).
  Proof.
    intros afuel g c s oracle e r Han Hg Hall Hok _ HI. inversion Han; subst r; clear Han. cbn in Hg, Hall, Hok |- *.
    apply andb_true_iff in Hok as [Hoka Hoke]. apply andb_true_iff in Hg as [Hu _].
    split; [|split; [apply SInv_local; [apply HI | apply Vok_atom, HI] | apply Vok_atom, HI]].
    intros Hv Hev.
    destruct (eval_atom_nil g c s e er Hoke HI Hev) as [q [Hq Hnq]]. revert Hall.
    destruct (forallb (fun p => match p with PNever => true | _ => false end) (prods_of_atom e er)) eqn:En; intros Hall.
    - rewrite forallb_forall in En. specialize (En q Hq). destruct q; try discriminate.
      contradiction.
    - exact (use_ret g c s _ 0 Hall Hu (eval_atom_nil g c s e a Hoka HI Hv)).
  Qed.

  (* what the caller learns from the run of a callee h in context c' (falling off the end hands back nil, nil) *)
  Definition callee_post (h : fname) (c' : option nat) (out : outcome) : Prop :=
    match out with
    | ONormal s' _ => returned h c' VNil VNil s'
    | OReturn v s' _ => returned h c' v (sget s' VERR) s'
    | OPanic _ => False
    | OOutOfFuel => True
    end.

  Lemma call_rule fuel h fd c' s vs oracle : (forall st, sound_for fuel st) ->
    nth_error (p_funcs prog) h = Some fd -> ctx_ok h c' -> SInv s -> Forall Vok vs -> length vs = f_nparams fd ->
    (forall i, nth_error vs i = Some VNil -> nu (ssub h c' (SParam h i))) ->
    callee_post h c' (exec prog fuel (f_body fd) (bind_params 0 vs ++ globals_of s) oracle).
  Proof.
    intros IH Hh Hctx HS Hvs Hlen Hnil.
    destruct (FuncsOK h fd c' Hh Hctx) as [afuel [r [Han [Hg [Hall Hend]]]]].
    pose proof (IH (f_body fd) afuel h c' _ oracle _ r Han Hg Hall (WF h fd Hh) (CallsOK h fd Hh)
                   (callee_entry h c' s vs _ HS Hvs Hlen Hnil)) as R.
    destruct (exec prog fuel (f_body fd) (bind_params 0 vs ++ globals_of s) oracle) as [s' o'|v s' o'|d|]; auto.
    cbn in R |- *. destruct (a_env r) as [e'|]; [|contradiction].
    split; [|split; [apply R | apply Vok_nil]]. intros _ _. eapply tsite_ret; [apply Hend; discriminate | exact I].
  Qed.

  Lemma plain_call fuel g c s e h fd args oracle : (forall st, sound_for fuel st) ->
    nth_error (p_funcs prog) h = Some fd -> Inv g c s e -> length args = f_nparams fd ->
    Forall (Has g c) (arg_triggers e (SParam h) 0 args) -> forallb (atom_ok prog) args = true ->
    forallb (fun a => use_ok (prods_of_atom e a)) args = true ->
    callee_post h None (exec prog fuel (f_body fd) (bind_params 0 (map (eval_atom s) args) ++ globals_of s) oracle).
  Proof.
    intros IH Hh HI Hlen Hargs Hoks Hus.
    apply (call_rule fuel h fd None s _ oracle IH Hh I (proj2 HI) (Vok_atoms s args (proj2 (proj2 HI)))).
    - now rewrite map_length.
    - intros i Hi. rewrite nth_error_map in Hi. destruct (nth_error args i) as [a|] eqn:Ea; [|discriminate].
      inversion Hi. eapply (arg_site g c s e (SParam h)); eauto.
  Qed.

  Definition yields_nil (out : outcome) : Prop :=
    match out with ONormal _ _ => True | OReturn v _ _ => v = VNil | _ => False end.

  Lemma single_result g c s e x site h c' out :
    Inv g c s e -> callee_post h c' out -> (ret_ok h c' -> yields_nil out -> nu site) -> site <> SParam g 0 ->
    Forall (Has g c) (match x with Some y => store_triggers y [PSite site] | None => [] end) ->
    post g c (Some (match x with Some y => aputk (mark_stale ng e) y [PSite site] | None => mark_stale ng e end))
      match out with
      | ONormal s' o' => ONormal (oset (globals_of s' ++ locals_of s) x VNil) o'
      | OReturn v s' o' =>
          match sget s' VERR with VNil => ONormal (oset (globals_of s' ++ locals_of s) x v) o' | VPtr _ => OOutOfFuel end
      | OPanic d => OPanic d
      | OOutOfFuel => OOutOfFuel
      end.
  Proof.
    intros HI R Hnil Hne Hst. destruct out as [s' o'|v s' o'|d|]; cbn in R |- *; auto.
    - destruct R as [Hret [HS' Hv]]. apply result_assigned; auto. intros _. apply Hnil; [now apply Hret | exact I].
    - destruct (sget s' VERR) eqn:Ev; cbn; auto. destruct R as [Hret [HS' Hv]]. apply result_assigned; auto.
  Qed.

  Lemma contract_holds h fd fuel s v0 oracle : ctr h = true -> nth_error (p_funcs prog) h = Some fd ->
    yields_nil (exec prog fuel (f_body fd) (bind_params 0 [v0] ++ globals_of s) oracle) -> v0 = VNil.
  Proof.
    intros Hc Hh. destruct v0 as [|d]; auto.
    pose proof (proj2 (CtrTrue h fd Hc Hh) fuel (globals_of s) oracle d (sget_globals_local s)) as K.
    destruct (exec prog fuel (f_body fd) (bind_params 0 [VPtr d] ++ globals_of s) oracle); cbn; tauto.
  Qed.

  Lemma sound_call fuel cs x h args : (forall st, sound_for fuel st) -> sound_for (S fuel) (SCall cs x h args).
  Proof.
    intros IH afuel g c s oracle e r Han Hg Hall Hok Hcalls HI. inversion Han; subst r; clear Han.
    cbn in Hg, Hall, Hok. cbn [exec a_env].
    destruct (nth_error (p_funcs prog) h) as [fd|] eqn:Eh; [|discriminate].
    apply andb_true_iff in Hok as [Hok _]. apply andb_true_iff in Hok as [Hlen Hoks]. apply Nat.eqb_eq in Hlen.
    apply Forall_app in Hall as [Hargs Hst]. unfold call_param_site in Hargs. unfold call_result_site in *.
    destruct (ctr h) eqn:Ech; cbn [andb] in *.
    - (* contracted callee: runs on behalf of this call site, which is in its package; it has one parameter *)
      destruct (proj1 Hcalls h cs (or_introl eq_refl) Ech) as [Hsp Hctx]. rewrite Hsp in *. cbn [orb] in *.
      destruct (CtrTrue h fd Ech Eh) as [Hnp _].
      destruct args as [|a0 [|a1 rest]]; cbn in Hlen; try (rewrite Hnp in Hlen; discriminate). cbn [map].
      assert (Hcp : eval_atom s a0 = VNil -> nu (SCallParam h cs)).
      { intros Hv. eapply (arg_site g c s e (fun _ => SCallParam h cs) [a0] 0 a0); eauto. }
      apply (single_result g c s e x (SCallResult h cs) h (Some cs)); auto; [| |discriminate].
      + apply (call_rule fuel h fd (Some cs) s [eval_atom s a0] oracle IH Eh Hctx (proj2 HI)); [ | now rewrite Hnp | ].
        * apply (Vok_atoms s [a0]), HI.
        * intros [|[|i]] Hi; try discriminate. inversion Hi. rewrite ssub_param0. auto.
      + intros Hret Hout. apply ret_ok_site; auto. apply Hcp. exact (contract_holds h fd fuel s _ oracle Ech Eh Hout).
    - apply (single_result g c s e x (SResult h) h None); auto; [eapply plain_call; eauto | | discriminate].
      intros Hret _. now apply ret_ok_plain.
  Qed.

  (* method call on an interface value: dispatch to the implementation the value's concrete type provides, to which
     the value's links lead *)
  Lemma sound_calli fuel cs d x xi k m args : (forall st, sound_for fuel st) -> sound_for (S fuel) (SCallI cs d x xi k m args).
  Proof.
    intros IH afuel g c s oracle e r Han Hg Hall Hok _ HI. inversion Han; subst r; clear Han.
    cbn in Hg, Hall, Hok. cbn [exec a_env].
    apply andb_true_iff in Hok as [Hok Hsig]. apply andb_true_iff in Hok as [Hok _]. apply andb_true_iff in Hok as [Hxi Hoks].
    apply andb_true_iff in Hg as [Hu Hus]. apply Forall_app in Hall as [Hd Hall]. apply Forall_app in Hall as [Hargs Hst].
    destruct (nth_error (isig prog k) m) as [np|] eqn:Esig; [|discriminate]. apply Nat.eqb_eq in Hsig. subst np.
    destruct (sget s xi) as [|[[k' j]|]] eqn:Exi; cbn; auto.
    { exact (use_deref g c s _ d Hd Hu (proj1 HI xi Hxi Exi)). }
    destruct (Nat.eqb k k') eqn:Ek; cbn; auto. apply Nat.eqb_eq in Ek. subst k'.
    destruct (proj2 (proj2 HI) xi k j Exi) as [HL HC].
    destruct (HC m (length args) Esig) as [f [fd [Em [Ef Hnp]]]]. rewrite Em, Ef.
    destruct (HL m (length args) f fd Esig Em Ef) as [Lres Lpar].
    apply (single_result g c s e x (SIResult k m) f None); auto; [| |discriminate].
    - apply (call_rule fuel f fd None s (VPtr None :: map (eval_atom s) args) oracle IH Ef I (proj2 HI)).
      + constructor; [apply Vok_plain | apply Vok_atoms, HI].
      + cbn. now rewrite map_length.
      + intros [|i] Hi; [discriminate|]. cbn in Hi. rewrite nth_error_map in Hi.
        destruct (nth_error args i) as [a|] eqn:Ea; [|discriminate]. inversion Hi.
        apply Lpar; [assert (i < length args) by (apply nth_error_Some; congruence); lia|]. eapply (arg_site g c s e (SIParam k m)); eauto.
    - intros Hret _. now apply Lres, ret_ok_plain.
  Qed.

  Lemma sound_call2 fuel cs x xe h args : (forall st, sound_for fuel st) -> sound_for (S fuel) (SCall2 cs x xe h args).
  Proof.
    intros IH afuel g c s oracle e r Han Hg Hall Hok _ HI. rewrite analyze_call2 in Han. inversion Han; subst r; clear Han.
    cbn in Hg, Hall, Hok. cbn [exec a_env].
    destruct (nth_error (p_funcs prog) h) as [fd|] eqn:Eh; [|discriminate].
    apply andb_true_iff in Hok as [Hok Hxe]. apply andb_true_iff in Hok as [Hok Hx].
    apply andb_true_iff in Hok as [Hlen Hoks]. apply Nat.eqb_eq in Hlen.
    assert (Hx' : forall y, x = Some y -> is_glob y = false /\ is_target xe y = false).
    { intros y ->. destruct y; [|discriminate]. split; auto. destruct xe as [[i|j]|]; cbn in *; auto.
      now apply negb_true_iff in Hxe. }
    assert (Hxe' : forall y, xe = Some y -> is_glob y = false) by (intros y ->; now destruct y).
    pose proof (plain_call fuel g c s e h fd args oracle IH Eh HI Hlen Hall Hoks Hg) as R.
    destruct (exec prog fuel (f_body fd) (bind_params 0 (map (eval_atom s) args) ++ globals_of s) oracle) as [s' o'|v s' o'|d|];
      cbn in R |- *; auto; destruct R as [Hret [HS' Hv]].
    - apply (result2_assigned g c s e s' cs x xe h VNil VNil); auto using Vok_nil. intros E1 E2. now apply ret_ok_plain, Hret.
    - apply (result2_assigned g c s e s' cs x xe h v (sget s' VERR)); auto; [apply HS'|]. intros E1 E2. now apply ret_ok_plain, Hret.
  Qed.

  Lemma sound_retcall fuel cs h args : (forall st, sound_for fuel st) -> sound_for (S fuel) (SRetCall cs h args).
  Proof.
    intros IH afuel g c s oracle e r Han Hg Hall Hok _ HI. inversion Han; subst r; clear Han.
    cbn in Hg, Hall, Hok. cbn [exec a_env].
    destruct (nth_error (p_funcs prog) h) as [fd|] eqn:Eh; [|discriminate].
    apply andb_true_iff in Hok as [Hlen Hoks]. apply Nat.eqb_eq in Hlen. apply Forall_app in Hall as [Hargs Hfw].
    assert (Hfwd : forall v ev s', returned h None v ev s' -> Vok ev ->
              returned g c v (sget (sset (globals_of s' ++ locals_of s) VERR ev) VERR) (sset (globals_of s' ++ locals_of s) VERR ev)).
    { intros v ev s' [Hret [HS' Hv]] Hev. split; [|split; [apply SInv_local; [apply (after_call g c s s' e HI HS') | exact Hev] | exact Hv]].
      intros E1 E2. eapply tsite_ret; [apply (Forall_inv Hfw)|].
      cbn [psub nilS]. rewrite ssub_other by discriminate. now apply ret_ok_plain, Hret. }
    pose proof (plain_call fuel g c s e h fd args oracle IH Eh HI Hlen Hargs Hoks Hg) as R.
    destruct (exec prog fuel (f_body fd) (bind_params 0 (map (eval_atom s) args) ++ globals_of s) oracle) as [s' o'|v s' o'|d|];
      cbn in R |- *; auto; apply Hfwd; auto; [apply Vok_nil | apply R].
  Qed.

  Theorem analysis_sound : forall fuel st, sound_for fuel st.
  Proof.
    induction fuel as [|fuel IH]; intros st; [intros afuel g c s oracle e r _ _ _ _ _ _; exact I|].
    destruct st; [apply sound_skip | apply sound_seq | apply sound_assign | apply sound_call | apply sound_deref | apply sound_if
                 | apply sound_while | apply sound_return | apply sound_conv | apply sound_convi | apply sound_calli
                 | apply sound_return2 | apply sound_call2 | apply sound_retcall]; auto.
  Qed.
End Sound.

Lemma affil_triggers_in prog afuel ctr pk r g fd t :
  analyze_program afuel ctr pk prog = Some r -> nth_error (p_funcs prog) g = Some fd ->
  In t (flat_map (affil prog) (convs_of (f_body fd)) ++ flat_map (iaffil prog) (iconvs_of (f_body fd))) -> In t (all_strigs r).
Proof.
  intros Han Hg Ht. destruct (analyze_program_inv _ _ _ _ _ Han) as [tss [_ [_ [_ [_ [_ [Eaf _]]]]]]].
  apply in_all_strigs. right. right. right. eexists. split; [|exact Ht]. rewrite Eaf.
  exact (nth_error_In _ _ (map_nth_error (fun fd => flat_map (affil prog) (convs_of (f_body fd)) ++ _) g _ Hg)).
Qed.

Lemma convs_witnessed prog afuel ctr pk r :
  analyze_program afuel ctr pk prog = Some r ->
  forall g fd kj, nth_error (p_funcs prog) g = Some fd -> In kj (convs_of (f_body fd)) -> W prog (all_strigs r) kj.
Proof.
  intros Han g fd kj Hg Hin t Ht. eapply affil_triggers_in; eauto. apply in_or_app. left. apply in_flat_map. eauto.
Qed.

Lemma iconvs_witnessed prog afuel ctr pk r :
  analyze_program afuel ctr pk prog = Some r ->
  forall g fd kk, nth_error (p_funcs prog) g = Some fd -> In kk (iconvs_of (f_body fd)) -> IW prog (all_strigs r) kk.
Proof.
  intros Han g fd kk Hg Hin t Ht. eapply affil_triggers_in; eauto. apply in_or_app. right. apply in_flat_map. eauto.
Qed.

Lemma funcs_ok_of_analysis prog afuel ctr pk r :
  analyze_program afuel ctr pk prog = Some r -> r_gsafe r = true -> r_nodel r = true ->
  let sp2 f g := Nat.eqb (pk f) (pk g) in
  forall g fd c, nth_error (p_funcs prog) g = Some fd -> ctx_ok prog ctr sp2 g c ->
    exists afuel' rg, analyze (length (p_ginit prog)) ctr (sp2 g) g afuel' (f_body fd) (entry_env g 0 (f_nparams fd)) = Some rg /\
      a_gsafe rg = true /\ Forall (Has (all_strigs r) g c) (a_trig rg) /\ (a_env rg <> None -> Has (all_strigs r) g c (falloff g)).
Proof.
  intros Han Hgs Hnd sp2 g fd c Hg Hctx.
  destruct (analyze_program_inv _ _ _ _ _ Han) as [tss [Ef [_ [Efu [End [Edu _]]]]]]. fold sp2 in Ef, Efu, End, Edu.
  rewrite Hgs in Ef. rewrite Hnd in End. rewrite drop_safe_id in Efu by auto.
  destruct (analyze_funcs_nth _ _ _ _ _ _ _ _ Ef g fd Hg) as [tg [bi [A1 [A2 A3]]]]. cbn in A1.
  assert (Own : forall t, In t tg -> In t (all_strigs r)).
  { intros t Ht. apply in_all_strigs. right. left. exists tg. split; [rewrite Efu; exact (nth_error_In _ _ A2) | exact Ht]. }
  assert (HasTg : forall t, In t tg -> Has (all_strigs r) g c t).
  { intros t Ht. unfold Has, inst. destruct c as [cs|]; [|auto]. destruct (touches g t) eqn:Et; [|auto].
    destruct Hctx as [Hcg [fc [fdc [Hfc [Hin Hsp]]]]]. apply in_all_strigs. right. right. left. rewrite Edu.
    exact (dupt_in_dups_all ctr sp2 tss _ fc fdc g cs tg t Hfc Hin Hcg Hsp A2 Ht Et). }
  destruct (analyze_func_inv _ _ _ _ _ _ _ _ A1) as [rg [Ea [-> ->]]].
  exists afuel, rg. split; [exact Ea|]. split; [auto|]. split.
  - apply Forall_forall. intros t Ht. apply HasTg, in_or_app. auto.
  - intros Hne. apply HasTg, in_or_app. right. destruct (a_env rg); [now left | congruence].
Qed.

Lemma calls_ok_of_analysis prog afuel ctr pk r :
  analyze_program afuel ctr pk prog = Some r -> r_clocal r = true ->
  let sp2 f g := Nat.eqb (pk f) (pk g) in
  forall g fd, nth_error (p_funcs prog) g = Some fd -> calls_ok prog ctr sp2 (all_strigs r) g (f_body fd).
Proof.
  intros Han Hcl sp2 g fd Hg. split; [|split; intros kj Hin; [eapply convs_witnessed | eapply iconvs_witnessed]; eauto].
  destruct (analyze_program_inv _ _ _ _ _ Han) as [tss [_ [_ [_ [_ [_ [_ Ecl]]]]]]]. rewrite Hcl in Ecl.
  intros h cs Hin Hc. pose proof (ctr_local_nth ctr sp2 _ 0 g fd (eq_sym Ecl) Hg) as Hl.
  rewrite forallb_forall in Hl. specialize (Hl (h, cs) Hin). cbn in Hl. rewrite Hc in Hl.
  repeat split; auto. exists g, fd. auto.
Qed.

Lemma Inv_init prog ALLs : (forall t, In t (decl_triggers 0 (p_ginit prog)) -> In t ALLs) ->
  Inv prog ALLs 0 None (init_globals 0 (p_ginit prog)) [].
Proof.
  intros Hdecl. assert (HG : GInv prog ALLs (init_globals 0 (p_ginit prog))).
  { intros k Hk Hx. rewrite sget_init in Hx.
    destruct (nth_error (p_ginit prog) k) as [[|]|] eqn:En; try discriminate.
    - eapply (tsite_plain ALLs 0 None 0 PNil (SGlobal k)); [|exact I|reflexivity].
      apply Hdecl, (decl_triggers_in (p_ginit prog) 0 k En).
    - apply nth_error_None in En. lia. }
  split; [|split; [exact HG|]].
  - intros x Hok Hx. destruct x as [i|k]; cbn.
    + exists PNil. split; [now left | exact I].
    + exists (PSite (SGlobal k)). split; [now left|]. apply HG; auto. now apply Nat.ltb_lt.
  - intros x k j E. destruct (sget_init_globals_plain (p_ginit prog) x 0) as [E'|E']; rewrite E' in E; discriminate.
Qed.

(* If the analysis of a well-formed program completes, never uses a package-level value tracked across a call
   that may have re-assigned it, deletes no trigger as "always safe", contracted functions have one parameter, are
   called from their own package only and their contracts are true, and the emitted constraints contain no flow from a
   nil source to a dereference, then no execution of the program dereferences nil -- whatever the opaque conditions
   answer and however long it runs. *)
Theorem no_flow_no_panic prog afuel ctr pk r :
  analyze_program afuel ctr pk prog = Some r -> r_gsafe r = true -> r_clocal r = true -> r_nodel r = true ->
  wf_program prog = true -> ctr_arity ctr 0 (p_funcs prog) = true ->
  (forall g fd, ctr g = true -> nth_error (p_funcs prog) g = Some fd -> contract_true prog fd) ->
  ~ has_flow (csys_of [] [] (all_triggers r)) ->
  forall fuel oracle, panic_of (run_program prog fuel oracle) = None.
Proof.
  intros Han Hgs Hcl Hnd Hwf Har Hct Hnf fuel oracle.
  set (sp2 := fun f g : fname => Nat.eqb (pk f) (pk g)).
  pose proof (funcs_ok_of_analysis _ _ _ _ _ Han Hgs Hnd) as FuncsOK.
  pose proof (calls_ok_of_analysis _ _ _ _ _ Han Hcl) as CallsOK. cbn zeta in FuncsOK, CallsOK. fold sp2 in FuncsOK, CallsOK.
  assert (CtrTrue : forall g fd, ctr g = true -> nth_error (p_funcs prog) g = Some fd -> f_nparams fd = 1 /\ contract_true prog fd).
  { intros g fd Hc Hg. split; [eapply (ctr_arity_nth ctr _ 0 g); eauto | eapply Hct; eauto]. }
  unfold run_program. destruct (nth_error (p_funcs prog) 0) as [fd|] eqn:E0; [|reflexivity].
  destruct (wf_program_inv prog Hwf) as [WF Hentry].
  destruct (FuncsOK 0 fd None E0 I) as [af [rg [Ea [Hg [Hall _]]]]]. rewrite (Hentry fd E0) in Ea.
  assert (HI : Inv prog (all_strigs r) 0 None (init_globals 0 (p_ginit prog)) []).
  { apply Inv_init. intros t Ht. apply in_all_strigs. left.
    destruct (analyze_program_inv _ _ _ _ _ Han) as [tss [_ [Ed _]]]. now rewrite Ed. }
  pose proof (analysis_sound prog ctr sp2 (all_strigs r) Hnf FuncsOK WF CtrTrue CallsOK fuel (f_body fd) af 0 None _ oracle []
                rg Ea Hg Hall (WF 0 fd E0) (CallsOK 0 fd E0) HI) as R.
  destruct (exec prog fuel (f_body fd) (init_globals 0 (p_ginit prog)) oracle); cbn; auto. contradiction.
Qed.

(* The statement the properties C01, C08, C09 and C20 use: it also asks that no method implementing an interface has a
   contract (impls_plain), which the simulation does not need. *)
Theorem flow_sound prog afuel ctr pk r :
  analyze_program afuel ctr pk prog = Some r -> r_gsafe r = true -> r_clocal r = true -> r_nodel r = true ->
  wf_program prog = true -> ctr_arity ctr 0 (p_funcs prog) = true -> impls_plain prog ctr = true ->
  (forall g fd, ctr g = true -> nth_error (p_funcs prog) g = Some fd -> contract_true prog fd) ->
  ~ has_flow (csys_of [] [] (all_triggers r)) ->
  forall fuel oracle, panic_of (run_program prog fuel oracle) = None.
Proof. intros Han Hgs Hcl Hnd Hwf Har _. now apply (no_flow_no_panic prog afuel ctr pk r). Qed.
