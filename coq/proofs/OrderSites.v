(* Classification of the regenerated inventories (gen/Inventory.v). Hand-maintained: a new map range, goroutine,
   package-level variable or write through a driver-shared type that is not listed here breaks the obligations below. *)
From Coq Require Import List String.
From NG Require Import Inventory.
Import ListNotations.
Open Scope string_scope.

Inductive range_class := SortedAfter | SetLike | StaticTable | OutOfModel.
(* SortedAfter: the visited entries are collected and sorted (or indexed) before anything order-sensitive happens
   SetLike: the loop body only inserts into / tests membership of a set or map, or folds with a commutative, idempotent operation
   StaticTable: a package-level table filled at init whose entries match disjoint inputs
   OutOfModel: only reachable under an experimental flag (struct-init v1/v2, anonymous functions) or in the golangci plugin glue *)
Definition range_classes : list (string * range_class) := [
  ("annotation/map.go:ObservedMap.Range:1:m.fieldAnnMap", SortedAfter);
  ("annotation/map.go:ObservedMap.Range:2:m.funcParamAnnMap", SortedAfter);
  ("annotation/map.go:ObservedMap.Range:3:m.funcRetAnnMap", SortedAfter);
  ("annotation/map.go:ObservedMap.Range:4:m.funcRecvAnnMap", SortedAfter);
  ("annotation/map.go:ObservedMap.Range:5:m.deepTypeAnnMap", SortedAfter);
  ("annotation/map.go:ObservedMap.Range:6:m.globalVarsAnnMap", SortedAfter);
  ("annotation/map.go:ObservedMap.Range:7:m.funcCallSiteParamAnnMap", SortedAfter);
  ("annotation/map.go:ObservedMap.Range:8:m.funcCallSiteRetAnnMap", SortedAfter);
  ("annotation/map.go:newObservedMap:1:nilabilityFromCommentGroup(specDoc)", SetLike);
  ("assertion/anonymousfunc/analyzer.go:run:1:closureMap", OutOfModel);
  ("assertion/function/analyzer.go:duplicateFullTriggersFromContractedFunctionsToCallers:1:funcResults", SortedAfter);
  ("assertion/function/analyzer.go:duplicateFullTriggersFromContractedFunctionsToCallers:2:callsByCtrtFunc", SortedAfter);
  ("assertion/function/analyzer.go:run:1:funcLitMap", SetLike);
  ("assertion/function/assertiontree/rich_check_effect.go:propagateRichChecks:1:reachingEffects", SetLike);
  ("assertion/function/assertiontree/rich_check_effect.go:propagateRichChecks:2:maskingEffects", SetLike);
  ("assertion/function/assertiontree/rich_check_effect.go:propagateRichChecks:3:reachingEffects", SetLike);
  ("assertion/function/assertiontree/rich_check_effect.go:weakPropagateRichChecks:1:reachability", SetLike);
  ("assertion/function/assertiontree/structinitv2.go:RootAssertionNode.bindCallResultFieldsToContext:1:pathSet", OutOfModel);
  ("assertion/function/assertiontree/util.go:FilterTriggersForErrorReturn:1:retTriggers", SetLike);
  ("assertion/function/functioncontracts/analyzer.go:run:1:contracts", SetLike);
  ("assertion/function/functioncontracts/infer.go:inferContracts:1:nilnessTablesUnderPred", SetLike);
  ("assertion/function/functioncontracts/infer.go:nilnessTable.addAll:1:other", SetLike);
  ("assertion/function/functioncontracts/infer.go:nilnessTable.copy:1:t", SetLike);
  ("assertion/function/functioncontracts/infer.go:nilnessTable.equals:1:t", SetLike);
  ("assertion/function/structfieldeffects/analyzer.go:importUsedParamEffects:1:calledFunctions", OutOfModel);
  ("assertion/function/structfieldeffects/analyzer.go:importUsedParamEffects:2:calleesByPackage", OutOfModel);
  ("assertion/function/structfieldeffects/analyzer.go:run:1:packageSummary.paramReads", OutOfModel);
  ("assertion/function/structfieldeffects/analyzer.go:run:2:packageSummary.paramWrites", OutOfModel);
  ("assertion/function/structfieldeffects/analyzer.go:run:3:packageSummary.returnEffects", OutOfModel);
  ("assertion/function/structfieldeffects/analyzer.go:run:4:packageSummary.returnParamSources", OutOfModel);
  ("assertion/function/structfieldeffects/analyzer.go:run:5:funcs", OutOfModel);
  ("assertion/function/structfieldeffects/collector.go:functionCollector.collectStableStructVars:1:fc.allocationVars", OutOfModel);
  ("assertion/function/structfieldeffects/collector.go:functionCollector.collectStableStructVars:2:fc.resultVars", OutOfModel);
  ("assertion/function/structfieldeffects/collector.go:functionCollector.collectStableStructVars:3:allowedUses", OutOfModel);
  ("assertion/function/structfieldeffects/effects.go:closeParamFieldSets:1:edges", OutOfModel);
  ("assertion/function/structfieldeffects/effects.go:closeParamFieldSets:2:fields[e.callee]", OutOfModel);
  ("assertion/function/structfieldeffects/effects.go:closeReturnEffects:1:edges", OutOfModel);
  ("assertion/function/structfieldeffects/effects.go:closeReturnEffects:2:effects[edge.callee]", OutOfModel);
  ("assertion/function/structfieldeffects/effects.go:fieldEffects.sortedPaths:1:e[funcObj]", OutOfModel);
  ("assertion/function/structfieldeffects/effects.go:fieldPathsForIndex:1:fields", OutOfModel);
  ("assertion/function/structfieldeffects/return_contracts.go:closeReturnParamSources:1:edges", OutOfModel);
  ("assertion/function/structfieldeffects/return_contracts.go:collectedFieldEffects.dropMixedResultParamSources:1:c.resultsWithConstructSite", OutOfModel);
  ("assertion/function/structfieldeffects/return_contracts.go:collectedFieldEffects.dropMixedResultParamSources:2:results", OutOfModel);
  ("assertion/function/structfieldeffects/return_contracts.go:collectedFieldEffects.dropMixedResultParamSources:3:c.summary.returnEffects", OutOfModel);
  ("assertion/function/structfieldeffects/return_contracts.go:collectedFieldEffects.dropMixedResultParamSources:4:effects", OutOfModel);
  ("assertion/function/structfieldeffects/return_contracts.go:collectedFieldEffects.dropMixedResultParamSources:5:constructed", OutOfModel);
  ("assertion/function/structfieldeffects/return_contracts.go:collectedFieldEffects.dropMixedResultParamSources:6:results", OutOfModel);
  ("assertion/function/structfieldeffects/return_contracts.go:collectedFieldEffects.dropMixedResultParamSources:7:c.summary.returnParamSources[fn]", OutOfModel);
  ("assertion/function/structfieldeffects/return_contracts.go:collectedFieldEffects.dropReturnEffects:1:c.summary.returnEffects[fn]", OutOfModel);
  ("assertion/function/structfieldeffects/return_contracts.go:collectedFieldEffects.dropReturnParamSources:1:c.summary.returnParamSources[fn]", OutOfModel);
  ("assertion/function/structfieldeffects/return_contracts.go:collectedFieldEffects.dropWholeResultParamSources:1:c.summary.returnParamSources[fn]", OutOfModel);
  ("assertion/function/structfieldeffects/return_contracts.go:composeReturnParamSources:1:sources[edge.callee]", OutOfModel);
  ("assertion/function/structfieldeffects/return_contracts.go:returnParamSourceSet.sortedSources:1:s[funcObj]", OutOfModel);
  ("assertion/global/globalvarinit.go:hasGlobalVarAssignInInitFunc:1:assignedVars", SetLike);
  ("cmd/gclplugin/gclplugin.go:New:1:s", OutOfModel);
  ("cmd/gclplugin/gclplugin.go:NilAwayPlugin.BuildAnalyzers:1:p.conf", OutOfModel);
  ("diagnostic/nolint.go:run:1:commentMap", SortedAfter);
  ("guard/guard.go:NonceSet.Intersection:1:out", SetLike);
  ("guard/guard.go:NonceSet.SubsetOf:1:g", SetLike);
  ("guard/guard.go:NonceSet.Union:1:g", SetLike);
  ("guard/guard.go:NonceSet.Union:2:other", SetLike);
  ("hook/assume_return.go:matchTrustedFuncs:1:_assumeReturns", StaticTable);
  ("hook/error_return.go:ErrorReturnNonnilArg:1:_errorReturnNonnilArgs", StaticTable);
  ("hook/replace_conditional.go:ReplaceConditional:1:_replaceConditionals", StaticTable);
  ("hook/split_blocks_on.go:SplitBlockOn:1:_splitBlockOn", StaticTable);
  ("inference/engine.go:Engine.ObservePackage:1:mapSiteGuardMissing", SetLike);
  ("inference/engine.go:Engine.ObservePackage:2:mapSiteReturn", SetLike)
].

Inductive write_class := CopiedGraph | FreshObject | ValueCopy.
(* CopiedGraph: the block/graph written to is the one returned by copyGraph (or a block appended to it)
   FreshObject: the object was allocated by the writing function itself
   ValueCopy: the written struct is a local value copy (token.Position, analysis.Diagnostic), not shared memory *)
Definition write_classes : list (string * write_class) := [
  ("assertion/function/assertiontree/backprop_util.go:blocksAndPreprocessingFromCFG:1:cfg.Block:blocks[i].Succs", CopiedGraph);
  (* called by blocksAndPreprocessingFromCFG only, on the same block list (repair of finding F71) *)
  ("assertion/function/assertiontree/backprop_util.go:linkEndlessLoopsToReturn:1:cfg.Block:b.Succs", CopiedGraph);
  ("assertion/function/preprocess/cfg.go:Preprocessor.CFG:1:cfg.CFG:graph.Blocks", CopiedGraph);
  ("assertion/function/preprocess/cfg.go:Preprocessor.canonicalizeConditional:1:cfg.Block:thisBlock.Nodes[len(thisBlock.Nodes)-1]", CopiedGraph);
  ("assertion/function/preprocess/cfg.go:Preprocessor.canonicalizeConditional:2:cfg.Block:thisBlock.Succs[0]", CopiedGraph);
  ("assertion/function/preprocess/cfg.go:Preprocessor.canonicalizeConditional:3:cfg.Block:thisBlock.Succs[1]", CopiedGraph);
  ("assertion/function/preprocess/cfg.go:Preprocessor.canonicalizeConditional:4:cfg.CFG:graph.Blocks", CopiedGraph);
  ("assertion/function/preprocess/cfg.go:Preprocessor.markTypeSwitch:1:cfg.Block:caseBlock.Nodes", CopiedGraph);
  ("assertion/function/preprocess/cfg.go:Preprocessor.markTypeSwitch:2:cfg.Block:body.Nodes", CopiedGraph);
  ("assertion/function/preprocess/cfg.go:Preprocessor.markTypeSwitch:3:cfg.Block:caseBlock.Nodes", CopiedGraph);
  ("assertion/function/preprocess/cfg.go:Preprocessor.replaceConditional:1:cfg.Block:block.Nodes[len(block.Nodes)-1]", CopiedGraph);
  ("assertion/function/preprocess/cfg.go:Preprocessor.restructureOnNoReturnCall:1:cfg.Block:block.Nodes", CopiedGraph);
  ("assertion/function/preprocess/cfg.go:Preprocessor.restructureOnNoReturnCall:2:cfg.Block:block.Succs", CopiedGraph);
  ("assertion/function/preprocess/cfg.go:Preprocessor.splitBlockOnTrustedFuncs:1:cfg.CFG:graph.Blocks", CopiedGraph);
  ("assertion/function/preprocess/cfg.go:Preprocessor.splitBlockOnTrustedFuncs:2:cfg.Block:thisBlock.Nodes", CopiedGraph);
  ("assertion/function/preprocess/cfg.go:Preprocessor.splitBlockOnTrustedFuncs:3:cfg.Block:thisBlock.Succs", CopiedGraph);
  ("assertion/function/preprocess/cfg.go:Preprocessor.splitBlockOnTrustedFuncs:4:cfg.Block:failureBlock.Live", CopiedGraph);
  ("assertion/function/preprocess/cfg.go:copyGraph:1:cfg.CFG:newGraph.Blocks", FreshObject);
  ("assertion/function/preprocess/cfg.go:copyGraph:2:cfg.Block:newBlock.Succs", FreshObject);
  ("assertion/function/preprocess/cfg.go:markRangeStatements:1:cfg.Block:block.Nodes", CopiedGraph);
  ("assertion/function/preprocess/cfg.go:markRangeStatements:2:cfg.Block:block.Nodes", CopiedGraph);
  ("assertion/function/preprocess/cfg.go:markRangeStatements:3:cfg.Block:block.Nodes", CopiedGraph);
  ("assertion/function/preprocess/cfg.go:markSwitchStatements:1:cfg.Block:block.Nodes", CopiedGraph);
  ("assertion/function/preprocess/cfg.go:markSwitchStatements:2:cfg.Block:caseBlock.Nodes", CopiedGraph);
  ("assertion/function/preprocess/templ.go:Preprocessor.inlineTemplComponentFuncLit:1:cfg.CFG:graph.Blocks", CopiedGraph);
  ("assertion/function/preprocess/templ.go:Preprocessor.inlineTemplComponentFuncLit:2:cfg.Block:b.Nodes[i]", CopiedGraph);
  ("diagnostic/engine.go:Engine.AddSingleAssertionConflict:1:token.Position:position.Filename", ValueCopy);
  ("inference/primitive.go:primitivizer.toPosition:1:token.Position:position.Filename", ValueCopy);
  ("nilaway.go:run:1:analysis.Diagnostic:e.Message", ValueCopy);
  ("util/analysishelper/pass.go:EnhancedPass.HumanReadablePosition:1:token.Position:position.Filename", ValueCopy);
  ("util/analysishelper/pass.go:EnhancedPass.HumanReadablePosition:2:token.Position:position.Filename", ValueCopy)
].

Definition expected_go_sites : list string := [
  "assertion/function/analyzer.go:run:go1";
  "assertion/function/analyzer.go:run:go2";
  "assertion/function/functioncontracts/analyzer.go:collectFunctionContracts:go1";
  "assertion/function/functioncontracts/analyzer.go:collectFunctionContracts:go2"
].

Inductive var_class := AnalyzerDescriptor | ImmutableAfterInit.
(* every package-level variable is an analysis.Analyzer descriptor or is assigned once at initialisation and only read afterwards *)
Definition var_classes : list (string * var_class) := [
  ("accumulation/analyzer.go:Analyzer", AnalyzerDescriptor);
  ("annotation/analyzer.go:Analyzer", AnalyzerDescriptor);
  ("annotation/map.go:EmptyVal", ImmutableAfterInit);
  ("config/config.go:_templHeaders", ImmutableAfterInit);
  ("assertion/function/assertiontree/backprop.go:ErrFuncTooLarge", ImmutableAfterInit);
  ("annotation/map.go:annotationKeyword", ImmutableAfterInit);
  ("annotation/map.go:paramRegexStr", ImmutableAfterInit);
  ("annotation/map.go:resultRegexStr", ImmutableAfterInit);
  ("annotation/map.go:tokenRegexStr", ImmutableAfterInit);
  ("annotation/map.go:deepIdentRegexStr", ImmutableAfterInit);
  ("annotation/map.go:seqRegexStr", ImmutableAfterInit);
  ("annotation/map.go:seqRegex", ImmutableAfterInit);
  ("assertion/affiliation/analyzer.go:Analyzer", AnalyzerDescriptor);
  ("assertion/analyzer.go:Analyzer", AnalyzerDescriptor);
  ("assertion/anonymousfunc/analyzer.go:Analyzer", AnalyzerDescriptor);
  ("assertion/function/analyzer.go:Analyzer", AnalyzerDescriptor);
  ("assertion/function/functioncontracts/analyzer.go:Analyzer", AnalyzerDescriptor);
  ("assertion/function/functioncontracts/infer.go:nilnessStrings", ImmutableAfterInit);
  ("assertion/function/functioncontracts/parse.go:_contractRE", ImmutableAfterInit);
  ("assertion/function/structfieldeffects/analyzer.go:Analyzer", AnalyzerDescriptor);
  ("assertion/global/analyzer.go:Analyzer", AnalyzerDescriptor);
  ("assertion/structfield/analyzer.go:Analyzer", AnalyzerDescriptor);
  ("cmd/nilaway/main.go:Analyzer", AnalyzerDescriptor);
  ("cmd/nilaway/main.go:_includeErrorsInFiles", ImmutableAfterInit);
  ("cmd/nilaway/main.go:_excludeErrorsInFiles", ImmutableAfterInit);
  ("config/config.go:Analyzer", AnalyzerDescriptor);
  ("diagnostic/nolint.go:NoLintAnalyzer", AnalyzerDescriptor);
  ("hook/assume_global_var.go:_assumeGlobalVarsNonnil", ImmutableAfterInit);
  ("hook/assume_return.go:_newErrorFuncNameRegex", ImmutableAfterInit);
  ("hook/assume_return.go:_assumeReturns", ImmutableAfterInit);
  ("hook/assume_return.go:nonnilProducer", ImmutableAfterInit);
  ("hook/error_return.go:_errorReturnNonnilArgs", ImmutableAfterInit);
  ("hook/no_return_call.go:_terminatingCalls", ImmutableAfterInit);
  ("hook/replace_conditional.go:_errorAsAction", ImmutableAfterInit);
  ("hook/replace_conditional.go:_assertConditionalAction", ImmutableAfterInit);
  ("hook/replace_conditional.go:_replaceConditionals", ImmutableAfterInit);
  ("hook/split_blocks_on.go:nilBinaryExpr", ImmutableAfterInit);
  ("hook/split_blocks_on.go:nonnilBinaryExpr", ImmutableAfterInit);
  ("hook/split_blocks_on.go:selfExpr", ImmutableAfterInit);
  ("hook/split_blocks_on.go:negatedSelfExpr", ImmutableAfterInit);
  ("hook/split_blocks_on.go:boolOrErrorExpr", ImmutableAfterInit);
  ("hook/split_blocks_on.go:_goconveyAssertions", ImmutableAfterInit);
  ("hook/split_blocks_on.go:goconveySoExpr", ImmutableAfterInit);
  ("hook/split_blocks_on.go:requireComparators", ImmutableAfterInit);
  ("hook/split_blocks_on.go:requireZeroComparators", ImmutableAfterInit);
  ("hook/split_blocks_on.go:requireLen", ImmutableAfterInit);
  ("hook/split_blocks_on.go:_splitBlockOn", ImmutableAfterInit);
  ("inference/engine.go:gobRegisteredTypes", ImmutableAfterInit);
  ("nilaway.go:Analyzer", AnalyzerDescriptor);
  ("nilaway.go:codeReferencePattern", ImmutableAfterInit);
  ("nilaway.go:pathPattern", ImmutableAfterInit);
  ("nilaway.go:nilabilityPattern", ImmutableAfterInit);
  ("util/tokenhelper/tokenhelper.go:_cwd", ImmutableAfterInit);
  ("util/tokenhelper/tokenhelper.go:_cwdErr", ImmutableAfterInit);
  ("util/typeshelper/typeshelper.go:ErrorType", ImmutableAfterInit);
  ("util/typeshelper/typeshelper.go:ErrorInterface", ImmutableAfterInit);
  ("util/typeshelper/typeshelper.go:BoolType", ImmutableAfterInit);
  ("util/typeshelper/typeshelper.go:BuiltinLen", ImmutableAfterInit);
  ("util/typeshelper/typeshelper.go:BuiltinMin", ImmutableAfterInit);
  ("util/typeshelper/typeshelper.go:BuiltinMax", ImmutableAfterInit);
  ("util/typeshelper/typeshelper.go:BuiltinAppend", ImmutableAfterInit);
  ("util/typeshelper/typeshelper.go:BuiltinNew", ImmutableAfterInit)
].

(* ---- ambient inputs: clocks, timers, deadlines, CPU count, environment, randomness, stack dumps ----
   Every use in the source tree is listed in gen/Inventory.v (ambient_gen); each must be one of the two kinds below.
   Anything else (a deadline on the analysis, a clock, a CPU count) makes the result depend on the machine and its
   load, and is an unclassified site: the lemma below stops checking. *)
Inductive ambient_class :=
  | PresentationOnly       (* decides colours of the printed message only (NO_COLOR, TERM); documented *)
  | OnlyInInternalError.   (* the stack dump inside an INTERNAL PANIC message, which C07 shows never to be produced *)

Definition ambient_classes : list (string * ambient_class) := [
  ("accumulation/analyzer.go:run:debug.Stack:1", OnlyInInternalError);
  ("assertion/function/analyzer.go:analyzeFunc:debug.Stack:1", OnlyInInternalError);
  ("assertion/function/functioncontracts/analyzer.go:collectFunctionContracts:debug.Stack:1", OnlyInInternalError);
  ("config/config.go:defaultPrettyPrint:os.Getenv:1", PresentationOnly);
  ("config/config.go:defaultPrettyPrint:os.Getenv:2", PresentationOnly);
  ("util/analysishelper/analyzer.go:WrapRun:debug.Stack:1", OnlyInInternalError)
].

Definition classified {A} (table : list (string * A)) (s : string) : bool := existsb (fun e => String.eqb (fst e) s) table.

Lemma map_ranges_classified : forallb (classified range_classes) map_ranges_gen = true.
Proof. vm_compute. reflexivity. Qed.

Lemma shared_writes_classified : forallb (classified write_classes) shared_writes_gen = true.
Proof. vm_compute. reflexivity. Qed.

Lemma ambient_classified : forallb (classified ambient_classes) ambient_gen = true.
Proof. vm_compute. reflexivity. Qed.

Lemma go_sites_expected : go_sites_gen = expected_go_sites.
Proof. reflexivity. Qed.

Lemma pkg_vars_classified : forallb (classified var_classes) pkg_vars_gen = true.
Proof. vm_compute. reflexivity. Qed.
