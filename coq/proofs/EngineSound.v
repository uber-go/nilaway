(* Soundness invariant of the engine: everything in the state and on the work stack is justified by
   active constraints of the system C; hence every reported conflict is a real source-to-sink flow. *)
From Coq Require Import List PeanoNat.
From NM Require Import Engine EngineSpec.
From NP Require Import EngineBasics EngineStep SpecFacts.
Import ListNotations.

Section Sound.
  Variable C : csys.

  (* e explains the verdict (eval_expl e) of site s by a chain of active edges of C that starts at an
     active source (for true) / ends at an active sink (for false) *)
  Inductive just : site -> expl -> Prop :=
    | j_leaf s e : act C (if eval_expl e then ASrc s else ASnk s) -> just s e
    | j_deep_t p c t e : act C (AEdge p c t) -> just p e -> eval_expl e = true -> just c (EDeep t e)
    | j_deep_f p c t e : act C (AEdge p c t) -> just c e -> eval_expl e = false -> just p (EDeep t e).

  Lemma just_reach s e : just s e -> if eval_expl e then nilr C s else nonr C s.
  Proof.
    induction 1 as [s e H | p c t e Ha Hj IH He | p c t e Ha Hj IH He].
    - destruct (eval_expl e); [now apply act_src_nilr | now apply nn_snk].
    - cbn. rewrite He in *. eapply act_edge_nilr; eauto.
    - cbn. rewrite He in *. eapply nn_edge; eauto.
  Qed.

  Definition conflict_ok (c : conflict) : Prop :=
    match c with
    | CSingle t => act C (ADirect t)
    | COver et ef => exists s, just s et /\ eval_expl et = true /\ just s ef /\ eval_expl ef = false
    end.

  Record J (st : state) (work : list item) : Prop := {
    J1 : forall s e, det_l (mp st) s = Some e -> just s e;
    J2 : forall s e, In (ISite s e) work -> just s e;
    J3 : forall t a, In (ITrig t) work -> In a (atoms_of_trigger t) -> act C a;
    J4 : forall p c t, In (IImpl p c t) work -> act C (AEdge p c t);
    J5o : forall s o t, In (o, t) (outs_l (mp st) s) -> act C (AEdge s o t);
    J5i : forall s i t, In (i, t) (ins_l (mp st) s) -> act C (AEdge i s t);
    J6 : forall t a, In t (ctl st) -> In a (atoms_of_trigger t) -> exists k, t_ctrl t = Some k /\ In (k, a) (ctld C);
    J7 : forall c, In c (conflicts st) -> conflict_ok c }.

  Definition item_ok (it : item) : Prop :=
    match it with
    | ISite s e => just s e
    | ITrig t => forall a, In a (atoms_of_trigger t) -> act C a
    | IImpl p c t => act C (AEdge p c t)
    end.
  Definition map_ok (m : list (site * ival)) : Prop :=
    (forall s e, det_l m s = Some e -> just s e) /\
    (forall s o t, In (o, t) (outs_l m s) -> act C (AEdge s o t)) /\
    (forall s i t, In (i, t) (ins_l m s) -> act C (AEdge i s t)).
  Definition ctl_ok (l : list trigger) : Prop :=
    forall t a, In t l -> In a (atoms_of_trigger t) -> exists k, t_ctrl t = Some k /\ In (k, a) (ctld C).

  Lemma J_parts st work :
    J st work <-> map_ok (mp st) /\ Forall item_ok work /\ ctl_ok (ctl st) /\ Forall conflict_ok (conflicts st).
  Proof.
    rewrite !Forall_forall. split.
    - intros [H1 H2 H3 H4 H5o H5i H6 H7]. repeat split; auto.
      intros [s e|t|p c t] Hin; cbn; eauto.
    - intros [[H1 [H5o H5i]] [Hw [H6 H7]]]. constructor; auto; intros; [apply (Hw (ISite s e)) | apply (Hw (ITrig t)) | apply (Hw (IImpl p c t))]; auto.
  Qed.

  Lemma map_ok_store_det m s e : map_ok m -> just s e -> map_ok (store m s (Det e)).
  Proof.
    intros [H1 [Ho Hi]] Hj. repeat split.
    - intros x e'. rewrite det_store_det. destruct (Nat.eqb_spec s x) as [->|]; auto. now intros [= <-].
    - intros x o t. rewrite outs_store_det. destruct (Nat.eqb s x); [intros []|apply Ho].
    - intros x i t. rewrite ins_store_det. destruct (Nat.eqb s x); [intros []|apply Hi].
  Qed.

  Lemma map_ok_store_impl m p c t :
    map_ok m -> det_l m p = None -> det_l m c = None -> act C (AEdge p c t) -> map_ok (store_impl m p c t).
  Proof.
    intros [H1 [Ho Hi]] Dp Dc Ha. repeat split.
    - intros s e. rewrite store_impl_det. apply H1.
    - intros s o t0 Hin. apply store_impl_outs in Hin; auto. destruct Hin as [Hin|[-> [-> ->]]]; auto.
    - intros s i t0 Hin. apply store_impl_ins in Hin; auto. destruct Hin as [Hin|[-> [-> ->]]]; auto.
  Qed.

  Lemma activate_ok st s e : ctl_ok (ctl st) -> just s e -> Forall item_ok (activate st s (eval_expl e)).
  Proof.
    intros H6 Hj. apply Forall_forall. intros it Hin. apply In_activate in Hin.
    destruct Hin as [Ev [t [-> [Hin Hk]]]]. intros a Ha. destruct (H6 _ _ Hin Ha) as [k [Hk' Hka]].
    right. exists s. split; [congruence|]. pose proof (just_reach _ _ Hj) as R. now rewrite Ev in R.
  Qed.

  Lemma propagate_ok m s e : map_ok m -> just s e -> Forall item_ok (propagate e (outs_l m s) (ins_l m s)).
  Proof.
    intros [_ [Ho Hi]] Hj. apply Forall_forall. intros it Hin. apply In_propagate in Hin.
    destruct Hin as [x [t [-> Hin]]]. cbn. destruct (eval_expl e) eqn:Ev.
    - eapply j_deep_t; eauto.
    - eapply j_deep_f; eauto.
  Qed.

  Lemma item_of_atom_ok i a : act C a -> Forall item_ok (item_of_atom i a).
  Proof. intros H. destruct a; cbn; auto; constructor; auto. all: now apply j_leaf. Qed.

  Lemma item_atom_ok it a : atom_of_item it = Some a -> act C a -> item_ok it.
  Proof. destruct it; cbn; intros [= <-]; auto. now apply j_leaf. Qed.

  Lemma over_ok s e e' : just s e' -> just s e -> eval_expl e' <> eval_expl e ->
    conflict_ok (if eval_expl e' then COver e' e else COver e e').
  Proof. intros H' H N. destruct (eval_expl e') eqn:E', (eval_expl e) eqn:E; try congruence; exists s; auto. Qed.

  Lemma J_step st it rest st1 new : J st (it :: rest) -> step st it = (st1, new) -> J st1 (new ++ rest).
  Proof.
    intros HJ Hs. apply J_parts in HJ. destruct HJ as [Hm [Hw [H6 H7]]].
    apply Forall_cons_iff in Hw. destruct Hw as [Hit Hw]. pose proof Hm as [H1 _].
    apply J_parts. rewrite (step_ctl _ _ _ _ Hs), Forall_app.
    destruct (step_Step _ _ _ _ Hs); cbn in Hit |- *; (split; [|split; [split; [|exact Hw]|split]]); auto.
    (* what is left, in the order of Step's cases: S_conflict (the new work, the conflict), S_det (the map, the new work),
       S_direct (the conflict), S_trig (the new work), S_impl_t and S_impl_cf (the one new item), S_impl_store (the map) *)
    - now apply activate_ok.
    - apply Forall_app. split; auto. constructor; auto. eapply over_ok; eauto.
    - now apply map_ok_store_det.
    - apply Forall_app. split; [now apply activate_ok | now apply propagate_ok].
    - apply Forall_app. split; auto. constructor; auto. now apply Hit.
    - apply Forall_flat_map, Forall_forall. intros a Ha. now apply item_of_atom_ok, Hit.
    - constructor; auto. eapply j_deep_t; eauto.
    - constructor; auto. eapply j_deep_f; eauto.
    - now apply map_ok_store_impl.
  Qed.

  Lemma J_dv st work s b : J st work -> dv st s = Some b -> if b then nilr C s else nonr C s.
  Proof.
    unfold dv. intros HJ. destruct (det_l (mp st) s) as [e|] eqn:E; [|discriminate].
    intros [= <-]. exact (just_reach _ _ (J1 _ _ HJ _ _ E)).
  Qed.

  Lemma conflict_ok_flow c : conflict_ok c -> has_flow C.
  Proof.
    destruct c as [t|et ef]; cbn.
    - intros H. left. eauto.
    - intros [s [H1 [E1 [H2 E2]]]]. right. exists s.
      pose proof (just_reach _ _ H1) as R1. pose proof (just_reach _ _ H2) as R2.
      rewrite E1 in R1. rewrite E2 in R2. auto.
  Qed.

  Lemma J_conflict_flow st work : J st work -> conflicts st <> [] -> has_flow C.
  Proof.
    intros HJ Hne. destruct (conflicts st) as [|c l] eqn:E; [congruence|].
    apply (conflict_ok_flow c). apply (J7 _ _ HJ). rewrite E. left; reflexivity.
  Qed.
End Sound.

Section Mono.
  Variables C C' : csys.
  Hypothesis Hb : forall a, In a (base C) -> In a (base C').
  Hypothesis Hk : forall ka, In ka (ctld C) -> In ka (ctld C').

  Lemma just_mono s e : just C s e -> just C' s e.
  Proof. induction 1; eauto using just, (act_mono C C' Hb Hk). Qed.
  Lemma conflict_ok_mono c : conflict_ok C c -> conflict_ok C' c.
  Proof.
    destruct c as [t|et ef]; cbn.
    - now apply act_mono.
    - intros [s [H1 [H2 [H3 H4]]]]. exists s. repeat split; auto; now apply just_mono.
  Qed.
  Lemma J_mono st w : J C st w -> J C' st w.
  Proof.
    pose proof (act_mono C C' Hb Hk) as HA.
    intros [H1 H2 H3 H4 H5o H5i H6 H7]. constructor; eauto using just_mono, conflict_ok_mono.
    intros t a H Ha. destruct (H6 t a H Ha) as [k [Hk1 Hk2]]. eauto.
  Qed.
End Mono.
