(* C15: within a package site_of is injective on well-formed keys, and an importer computes for a published object of a
   dependency the site that the dependency computes itself. *)
From Coq Require Import List PeanoNat.
From NM Require Import Keys.
Import ListNotations.

Section Identity.
  (* facts about the program that the key constructors respect *)
  Variable sig : obj -> nat -> option nat.          (* name of parameter n of a function (None: unnamed) *)
  Variable recv_name : obj -> option nat.           (* receiver type name printed for result-field keys *)
  Variable fld_of : obj -> nat -> nat -> obj.        (* the field called `name` of the struct at param/result n *)

  Definition wf_key (k : key) : Prop :=
    match k with
    | KCallSiteParam fn n pn _ | KParam fn n pn => pn = sig fn n
    | KRetField fn n fld rc => fld = fld_of fn n (o_name fld) /\ rc = recv_name fn
    | KParamField fn n pn fld _ _ => pn = sig fn n /\ fld = fld_of fn n (o_name fld)
    | _ => True
    end.

  Lemma repr_injective k1 k2 :
    wf_key k1 -> wf_key k2 -> key_obj k1 = key_obj k2 -> key_repr k1 = key_repr k2 -> k1 = k2.
  Proof.
    intros W1 W2 Ho Hr.
    destruct k1, k2; try discriminate Hr; cbn in *; injection Hr; intros; subst; try congruence.
    - destruct W1 as [F1 R1], W2 as [F2 R2]. assert (fld = fld0) by congruence. subst. congruence.
    - destruct W1 as [P1 F1], W2 as [P2 F2]. assert (fld = fld0) by congruence. subst. congruence.
  Qed.

  Variable v : view.

  Definition local_view_ok (objs : list obj) : Prop :=
    (forall o, In o objs -> o_pkg o = v_pkg v) /\
    (forall o1 o2, In o1 objs -> In o2 objs -> v_pos v o1 = v_pos v o2 -> o1 = o2).

  Theorem site_injective_local objs k1 d1 k2 d2 :
    local_view_ok objs -> In (key_obj k1) objs -> In (key_obj k2) objs -> wf_key k1 -> wf_key k2 ->
    site_of v k1 d1 = site_of v k2 d2 -> k1 = k2 /\ d1 = d2.
  Proof.
    intros [Hpk Hinj] I1 I2 W1 W2 H. unfold site_of in H.
    rewrite (Hpk _ I1), (Hpk _ I2), Nat.eqb_refl in H.
    assert (Hp : v_pos v (key_obj k1) = v_pos v (key_obj k2)) by (apply (f_equal s_pos) in H; exact H).
    assert (Hr : key_repr k1 = key_repr k2) by (apply (f_equal s_repr) in H; exact H).
    assert (Hd : d1 = d2) by (apply (f_equal s_deep) in H; exact H).
    split; auto. apply repr_injective; auto.
  Qed.
End Identity.

Section Stability.
  Variables home imp : view.

  (* the dependency published a fact that mentions the object: its (pkg, objectpath) is in the importer's
     position cache with the dependency's own position *)
  Definition published (o : obj) : Prop :=
    exists pa, o_path o = Some pa /\ lookup_up (v_upstream imp) (o_pkg o) pa = Some (v_pos home o).

  (* however imprecisely the importer knows the dependency's source positions (v_pos imp is arbitrary), the
     identity computed by the importer is the one computed at home *)
  Theorem site_stable k d :
    o_pkg (key_obj k) = v_pkg home -> o_pkg (key_obj k) <> v_pkg imp -> published (key_obj k) ->
    site_of imp k d = site_of home k d.
  Proof.
    intros Hh Hi [pa [Hpa Hl]]. unfold site_of.
    assert (E1 : Nat.eqb (o_pkg (key_obj k)) (v_pkg home) = true) by (apply Nat.eqb_eq; exact Hh).
    assert (E2 : Nat.eqb (o_pkg (key_obj k)) (v_pkg imp) = false) by (apply Nat.eqb_neq; exact Hi).
    rewrite E1, E2, Hpa, Hl. reflexivity.
  Qed.

  (* without a published fact the importer falls back on its own knowledge of the position: the identity then
     agrees with the home identity only if that knowledge is exact *)
  Theorem site_unpublished k d :
    o_pkg (key_obj k) <> v_pkg imp ->
    (forall pa, o_path (key_obj k) = Some pa -> lookup_up (v_upstream imp) (o_pkg (key_obj k)) pa = None) ->
    s_pos (site_of imp k d) = v_pos imp (key_obj k).
  Proof.
    intros Hi Hn. unfold site_of. apply Nat.eqb_neq in Hi. rewrite Hi. cbn.
    destruct (o_path (key_obj k)) as [pa|]; auto. now rewrite (Hn pa eq_refl).
  Qed.
End Stability.

(* non-vacuity: two same-named methods on different types (same Repr) are told apart by position *)
Definition mA := {| o_id := 1; o_pkg := 7; o_name := 5; o_exported := true; o_dispatch := false; o_path := Some 11 |}.
Definition mB := {| o_id := 2; o_pkg := 7; o_name := 5; o_exported := true; o_dispatch := false; o_path := Some 12 |}.
Definition ex_view := {| v_pkg := 7; v_pos := fun o => (1, 10 * o_id o); v_upstream := [] |}.
Example same_name_methods_differ :
  key_repr (KRet mA 0) = key_repr (KRet mB 0) /\ site_of ex_view (KRet mA 0) false <> site_of ex_view (KRet mB 0) false.
Proof. split; [reflexivity | discriminate]. Qed.
