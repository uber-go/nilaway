(* C02 on the model: a dereference protected by a nil check (model/Guard.v) only ever yields triggers whose
   producer never fires, so it can be part of no reported flow. *)
From Coq Require Import List Bool.
From NM Require Import Engine EngineSpec MiniGo Flow Guard.
From NP Require Import ListFacts SpecFacts FlowProofs.
Import ListNotations.

Definition never (a : aset) : Prop := forall p, In p a -> kind_of p = KNever.
Definition Pinv (P : pset) (e : env) : Prop := forall x, pmem x P = true -> never (aget e x).
(* no trigger into a dereference has a producer that can fire *)
Definition safe (tr : list strig) : Prop := forall t, In t tr -> s_cons t = CAlways -> kind_of (s_prod t) = KNever.

Lemma pmem_in x P : pmem x P = true <-> In x P.
Proof. apply existsb_eq_in, var_eqb_eq. Qed.
Lemma pmem_filter x f P : pmem x (filter f P) = true <-> pmem x P = true /\ f x = true.
Proof. rewrite !pmem_in. apply filter_In. Qed.
Lemma pmem_premove y x P : pmem y (premove x P) = true <-> pmem y P = true /\ y <> x.
Proof. unfold premove. rewrite pmem_filter, negb_true_iff, var_eqb_neq. split; intros [H1 H2]; split; congruence. Qed.
Lemma pmem_pinter x P Q : pmem x (pinter P Q) = true <-> pmem x P = true /\ pmem x Q = true.
Proof. apply pmem_filter. Qed.
Lemma pmem_cons y x P : pmem y (x :: P) = true <-> y = x \/ pmem y P = true.
Proof. rewrite !pmem_in. cbn. intuition. Qed.
Lemma pmem_unassigned x st P :
  pmem x (filter (fun y => negb (pmem y (assigned st))) P) = true <-> pmem x P = true /\ ~ In x (assigned st).
Proof. now rewrite pmem_filter, negb_true_iff, <- not_true_iff_false, (pmem_in x (assigned st)). Qed.

Lemma Pinv_sub P Q e : (forall x, pmem x Q = true -> pmem x P = true) -> Pinv P e -> Pinv Q e.
Proof. intros H HP x Hx. apply HP. auto. Qed.

Lemma never_one : never [PNever].
Proof. intros p [<-|[]]. reflexivity. Qed.
Lemma never_map fn a : (forall q, kind_of q = KNever -> kind_of (fn q) = KNever) -> never a -> never (map fn a).
Proof. intros Hf H p Hp. apply in_map_iff in Hp. destruct Hp as [q [<- Hq]]. auto. Qed.
Lemma kill_never x q : kind_of q = KNever -> kind_of (kill_guard x q) = KNever.
Proof. now destruct q. Qed.
Lemma check_never x q : kind_of q = KNever -> kind_of (check_guard x q) = KNever.
Proof. now destruct q. Qed.
Lemma never_norm a : never a -> never (norm a).
Proof. intros H p Hp. apply H. now apply norm_in. Qed.
Lemma Pinv_env_map fn P e : (forall x p, In p (dflt x) -> fn p = p) -> (forall q, kind_of q = KNever -> kind_of (fn q) = KNever) ->
  Pinv P e -> Pinv P (env_map fn e).
Proof. intros Hd Hf H y Hy. rewrite aget_env_map by apply Hd. exact (never_map _ _ Hf (H y Hy)). Qed.
Lemma Pinv_kill P e x : Pinv P e -> Pinv P (env_map (kill_guard x) e).
Proof. apply Pinv_env_map; [apply kill_dflt | apply kill_never]. Qed.

Lemma Pinv_join P Q e1 e2 : Pinv P e1 -> Pinv Q e2 -> Pinv (pinter P Q) (join e1 e2).
Proof.
  intros H1 H2 x Hx p Hp. apply pmem_pinter in Hx. destruct Hx as [Hx1 Hx2].
  apply aget_join in Hp. destruct Hp; [eapply H1 | eapply H2]; eauto.
Qed.

Lemma Pinv_put_never P e x a : Pinv P e -> never a -> Pinv (x :: P) (aput e x a).
Proof.
  intros H Ha y Hy. rewrite aget_aput. destruct (var_eqb x y) eqn:E; auto.
  apply pmem_cons in Hy. destruct Hy as [->|Hy]; [rewrite var_eqb_refl in E; discriminate|auto].
Qed.

Lemma Pinv_put_remove P e x a : Pinv P e -> Pinv (premove x P) (aput e x a).
Proof.
  intros H y Hy. apply pmem_premove in Hy. destruct Hy as [Hy Hne]. rewrite aget_aput.
  destruct (var_eqb x y) eqn:E; auto. apply var_eqb_eq in E. congruence.
Qed.

Lemma Pinv_putk_never P e x a : Pinv P e -> never a -> Pinv (x :: P) (aputk e x a).
Proof. intros H Ha. unfold aputk. apply Pinv_put_never; [now apply Pinv_kill | exact (never_map _ _ (kill_never x) Ha)]. Qed.
Lemma Pinv_putk_remove P e x a : Pinv P e -> Pinv (premove x P) (aputk e x a).
Proof. intros H. unfold aputk. apply Pinv_put_remove. now apply Pinv_kill. Qed.

Lemma Pinv_mark_stale ng P e : Pinv P e -> Pinv P (mark_stale ng e).
Proof.
  intros H x Hx p Hp. rewrite aget_mark_stale in Hp. destruct x as [i|k]; [eapply H; eauto|].
  destruct (Nat.ltb k ng && negb (fresh e k)); [|eapply H; eauto].
  destruct Hp as [<-|Hp]; [reflexivity | eapply H; eauto].
Qed.

Lemma Pinv_le P e1 e2 : Pinv P e2 -> env_le e1 e2 -> Pinv P e1.
Proof. intros H Hle x Hx p Hp. eapply H; eauto. Qed.

Lemma safe_app a b : safe (a ++ b) <-> safe a /\ safe b.
Proof.
  split; [intros H; split; intros t Ht; apply H, in_or_app; auto|].
  intros [H1 H2] t Ht. apply in_app_or in Ht. destruct Ht; auto.
Qed.

Lemma safe_nil : safe [].
Proof. intros t []. Qed.

Lemma safe_concat tss : (forall tg, In tg tss -> safe tg) -> safe (concat tss).
Proof. intros H t Ht. apply in_concat in Ht. destruct Ht as [tg [H1 H2]]. exact (H tg H1 t H2). Qed.

Lemma safe_flat_map {A} (f : A -> list strig) l : (forall x, safe (f x)) -> safe (flat_map f l).
Proof. intros H t Ht. apply in_flat_map in Ht. destruct Ht as [x [_ Ht]]. exact (H x t Ht). Qed.

Lemma safe_cons_site id p k ts : safe ts -> safe (mk_trigger id p (CSite k) :: ts).
Proof. intros H t [<-|Ht]; [cbn; discriminate | now apply H]. Qed.
Lemma safe_cond_cons {A} id (pf : A -> prod) (kf : A -> asite) l : safe (map (fun x => mk_trigger id (pf x) (CSite (kf x))) l).
Proof. induction l; [apply safe_nil | now apply safe_cons_site]. Qed.

Lemma safe_deref (a : aset) d : never a -> safe (map (fun p => mk_trigger d p CAlways) a).
Proof. intros H t Ht _. apply in_map_iff in Ht. destruct Ht as [p [<- Hp]]. cbn. auto. Qed.

Lemma safe_store x a : safe (store_triggers x a).
Proof. destruct x; cbn; [apply safe_nil|apply safe_cond_cons]. Qed.
Lemma safe_target (y : option var) a : safe (match y with Some z => store_triggers z a | None => [] end).
Proof. destruct y; [apply safe_store | apply safe_nil]. Qed.

Lemma safe_args e sf : forall args i, safe (arg_triggers e sf i args).
Proof.
  induction args as [|a args IH]; intros i; cbn; [apply safe_nil|].
  apply safe_app. split; [apply safe_cond_cons|apply IH].
Qed.

Lemma cond_prot_or c1 c2 P : cond_prot (COr c1 c2) P = cond_prot (or_as_and c1 c2) P.
Proof. cbn. destruct (cond_prot c1 P) as [[Pt1 Pf1] ok1]. now destruct (cond_prot c2 Pf1) as [[Pt2 Pf2] ok2]. Qed.

Lemma cond_prot_mono c : forall P Pt Pf ok x, cond_prot c P = (Pt, Pf, ok) -> pmem x P = true -> pmem x Pt = true /\ pmem x Pf = true.
Proof.
  induction c as [|y|d y|c IH|c1 c2 IH1 IH2|c1 c2 IH] using cond_ind_or; intros P Pt Pf ok x;
    [| | | | |rewrite cond_prot_or; apply IH]; intros H Hx; cbn in H.
  - inversion H; subst; auto.
  - inversion H; subst. split; auto. apply pmem_cons. auto.
  - inversion H; subst; auto.
  - destruct (cond_prot c P) as [[Pt1 Pf1] ok1] eqn:E. inversion H; subst. destruct (IH _ _ _ _ x E Hx). auto.
  - destruct (cond_prot c1 P) as [[Pt1 Pf1] ok1] eqn:E1. destruct (cond_prot c2 Pt1) as [[Pt2 Pf2] ok2] eqn:E2.
    inversion H; subst. destruct (IH1 _ _ _ _ x E1 Hx) as [A1 A2]. destruct (IH2 _ _ _ _ x E2 A1) as [B1 B2].
    split; auto. apply pmem_pinter. auto.
Qed.

Lemma acond_prot c : forall P e et ef tr b Pt Pf,
  Pinv P e -> acond c e = (et, ef, tr, b) -> cond_prot c P = (Pt, Pf, true) ->
  Pinv Pt et /\ Pinv Pf ef /\ safe tr.
Proof.
  induction c as [|y|d y|c IH|c1 c2 IH1 IH2|c1 c2 IH] using cond_ind_or; intros P e et ef tr b Pt Pf;
    [| | | | |rewrite acond_or, cond_prot_or; apply IH]; intros HP Ha Hc; cbn in Ha, Hc.
  - inversion Ha; inversion Hc; subst. repeat split; auto. apply safe_nil.
  - inversion Ha; inversion Hc; subst. repeat split; auto; [|exact (Pinv_env_map _ _ _ (check_dflt y) (check_never y) HP)|apply safe_nil].
    apply Pinv_put_never; auto using never_one.
  - inversion Ha; inversion Hc as [[E1 E2 E3]]; subst. repeat split; auto. apply safe_deref. apply never_norm. apply HP. auto.
  - destruct (acond c e) as [[[et1 ef1] tr1] b1] eqn:E1. destruct (cond_prot c P) as [[Pt1 Pf1] ok1] eqn:E2.
    inversion Ha; inversion Hc; subst. destruct (IH _ _ _ _ _ _ _ _ HP E1 E2) as [A [B D]]. auto.
  - destruct (acond c1 e) as [[[et1 ef1] tr1] b1] eqn:E1. destruct (acond c2 et1) as [[[et2 ef2] tr2] b2] eqn:E2.
    destruct (cond_prot c1 P) as [[Pt1 Pf1] ok1] eqn:F1. destruct (cond_prot c2 Pt1) as [[Pt2 Pf2] ok2] eqn:F2.
    inversion Ha; inversion Hc as [[G1 G2 G3]]; subst. apply andb_true_iff in G3. destruct G3 as [-> ->].
    destruct (IH1 _ _ _ _ _ _ _ _ HP E1 F1) as [A [B D]]. destruct (IH2 _ _ _ _ _ _ _ _ A E2 F2) as [A' [B' D']].
    repeat split; auto; [now apply Pinv_join | apply safe_app; auto].
Qed.

Definition oremove (y : option var) (P : pset) : pset := match y with Some z => premove z P | None => P end.

Lemma pmem_oremove y x P : pmem x (oremove y P) = true <-> pmem x P = true /\ is_target y x = false.
Proof. destruct y as [z|]; cbn [oremove is_target]; [|tauto]. rewrite pmem_premove, var_eqb_neq. split; intros [H N]; split; congruence. Qed.

Lemma frame_target (y : option var) x P : pmem x P = true -> ~ In x (match y with Some z => [z] | None => [] end) ->
  pmem x (oremove y P) = true.
Proof. intros Hx Hn. destruct y as [z|]; auto. apply pmem_premove. split; auto. intros ->. apply Hn. now left. Qed.

Lemma frame_assign y a P P' ok x : stmt_prot (SAssign y a) P = (Some P', ok) -> pmem x P = true -> ~ In x [y] -> pmem x P' = true.
Proof.
  intros H Hx Hn. inversion H; subst. assert (x <> y) by (intros ->; apply Hn; now left).
  assert (Hc : pmem x (y :: P) = true) by (apply pmem_cons; auto).
  assert (Hr : pmem x (premove y P) = true) by (now apply pmem_premove).
  destruct a as [| |z]; auto. destruct (pmem z P); auto.
Qed.

(* a variable that a statement does not assign stays protected across it; for this analysis a conversion is an
   assignment (of an allocation, of the converted variable) *)
Lemma prot_frame st : forall P P' ok x,
  stmt_prot st P = (Some P', ok) -> pmem x P = true -> ~ In x (assigned st) -> pmem x P' = true.
Proof.
  induction st as [| s1 IH1 s2 IH2 | y a | cs y g args | d y | c s1 IH1 s2 IH2 | c body IH | a | y ik j | y z ik ik2 | cs d y xi ik m args | a er | cs y ye g args | cs g args]; intros P P' ok x H Hx Hn; cbn in H, Hn; try discriminate.
  - inversion H; subst; auto.
  - destruct (stmt_prot s1 P) as [[P1|] ok1] eqn:E1; [|discriminate].
    destruct (stmt_prot s2 P1) as [o2 ok2] eqn:E2. inversion H; subst. apply notin_app in Hn as [N1 N2].
    exact (IH2 P1 P' ok2 x E2 (IH1 P P1 ok1 x E1 Hx N1) N2).
  - exact (frame_assign y a P P' ok x H Hx Hn).
  - inversion H; subst. now apply frame_target.
  - inversion H; subst; auto.
  - destruct (cond_prot c P) as [[Pt Pf] okc] eqn:Ec.
    destruct (stmt_prot s1 Pt) as [oa oka] eqn:E1. destruct (stmt_prot s2 Pf) as [ob okb] eqn:E2.
    inversion H as [[Ho Hok]]. destruct (cond_prot_mono _ _ _ _ _ x Ec Hx) as [Xt Xf]. apply notin_app in Hn as [N1 N2].
    destruct oa as [Pa|], ob as [Pb|]; cbn in Ho; inversion Ho; subst; [apply pmem_pinter; split| |]; eauto.
  - destruct (cond_prot c (filter (fun x0 => negb (pmem x0 (assigned body))) P)) as [[Pt Pf] okc] eqn:Ec.
    destruct (stmt_prot body Pt) as [ob okb] eqn:Eb. inversion H; subst.
    apply (cond_prot_mono _ _ _ _ _ x Ec). now apply pmem_unassigned.
  - exact (frame_assign y ANew P P' ok x H Hx Hn).
  - exact (frame_assign y (AVar z) P P' ok x H Hx Hn).
  - inversion H; subst. now apply frame_target.
  - inversion H; subst. apply notin_app in Hn as [N1 N2]. now apply frame_target; [apply frame_target|].
Qed.

Lemma stmt_prot_seq a b P oP : stmt_prot (SSeq a b) P = (oP, true) ->
  exists o1, stmt_prot a P = (o1, true) /\ match o1 with Some P1 => stmt_prot b P1 = (oP, true) | None => oP = None end.
Proof.
  cbn. destruct (stmt_prot a P) as [[P1|] ok1]; [destruct (stmt_prot b P1) as [o2 ok2] eqn:E2|]; intros [= <- Hok].
  - apply andb_true_iff in Hok as [-> ->]. now exists (Some P1).
  - subst ok1. now exists None.
Qed.

Definition falls (oP : option pset) (oe : option env) : Prop :=
  forall e', oe = Some e' -> exists P', oP = Some P' /\ Pinv P' e'.

Lemma falls_some P e : Pinv P e -> falls (Some P) (Some e).
Proof. intros H e' E. inversion E; subst. eauto. Qed.
Lemma falls_none oP : falls oP None.
Proof. intros e' E. discriminate. Qed.

(* after the two branches of an `if`; a branch that does not fall through constrains nothing *)
Lemma falls_join oa ob o1 o2 : falls oa o1 -> falls ob o2 -> falls (opt_inter oa ob) (join_opt o1 o2).
Proof.
  intros Ha Hb e' E. destruct o1 as [e1|], o2 as [e2|]; cbn in E; inversion E; subst.
  - destruct (Ha _ eq_refl) as [Pa [-> Ia]], (Hb _ eq_refl) as [Pb [-> Ib]]. eexists; split; [reflexivity|]. now apply Pinv_join.
  - destruct (Ha _ eq_refl) as [Pa [-> Ia]]. destruct ob as [Pb|]; cbn; eexists; split; eauto.
    eapply Pinv_sub; [|exact Ia]. intros x Hx. apply pmem_pinter in Hx. tauto.
  - destruct (Hb _ eq_refl) as [Pb [-> Ib]]. destruct oa as [Pa|]; cbn; eexists; split; eauto.
    eapply Pinv_sub; [|exact Ib]. intros x Hx. apply pmem_pinter in Hx. tauto.
Qed.

Section Analysis.
  Variable ng : nat.
  Variable ctr : fname -> bool.
  Variable sp : fname -> bool.
  Variable f : fname.
  Variable fuel : nat.

  Definition prot_ok (st : stmt) : Prop := forall e r P oP,
    Pinv P e -> analyze ng ctr sp f fuel st e = Some r -> stmt_prot st P = (oP, true) -> safe (a_trig r) /\ falls oP (a_env r).

  Lemma assign_prot x a : prot_ok (SAssign x a).
  Proof.
    intros e r P oP HP Han Hs. inversion Han; inversion Hs; subst; cbn. split; [apply safe_store | apply falls_some].
    destruct a as [| |z]; cbn; [| |destruct (pmem z P) eqn:Ez]; auto using Pinv_putk_remove, Pinv_putk_never, never_one.
  Qed.

  Lemma Pinv_target P e (y : option var) a : Pinv P e ->
    Pinv (oremove y P) (match y with Some z => aputk (mark_stale ng e) z a | None => mark_stale ng e end).
  Proof. intros H. apply (Pinv_mark_stale ng) in H. destruct y; [now apply Pinv_putk_remove | exact H]. Qed.

  (* the variables other than the two targets keep their producers up to kill_guard *)
  Lemma Pinv_call2 P e cs (y ye : option var) g : Pinv P e -> Pinv (oremove ye (oremove y P)) (call2_env ng e cs y ye g).
  Proof.
    intros HP x Hx p Hp. apply pmem_oremove in Hx as [Hx Nye]. apply pmem_oremove in Hx as [Hx Ny].
    rewrite aget_call2_env, Ny, Nye in Hp. apply in_map_iff in Hp as [q [<- Hq]]. apply in_map_iff in Hq as [q0 [<- Hq0]].
    pose proof (Pinv_mark_stale ng P e HP x Hx q0 Hq0) as K.
    destruct q0; try discriminate; destruct y, ye; reflexivity.
  Qed.

  Theorem analyze_prot : forall st e r P oP,
    Pinv P e -> analyze ng ctr sp f fuel st e = Some r -> stmt_prot st P = (oP, true) ->
    safe (a_trig r) /\ forall e', a_env r = Some e' -> exists P', oP = Some P' /\ Pinv P' e'.
  Proof.
    change (forall st, prot_ok st).
    induction st as [| s1 IH1 s2 IH2 | y a | cs y g args | d y | c s1 IH1 s2 IH2 | c body IH | a | y ik j | y z ik ik2 | cs d y xi ik m args | a er | cs y ye g args | cs g args];
      [| | apply assign_prot | | | | | | exact (assign_prot y ANew) | exact (assign_prot y (AVar z)) | | | |];
      intros e r P oP HP Han Hs; cbn in Han, Hs.
    - inversion Han; inversion Hs; subst. split; [apply safe_nil | now apply falls_some].
    - destruct (analyze ng ctr sp f fuel s1 e) as [r1|] eqn:E1; [|discriminate].
      destruct (stmt_prot_seq _ _ _ _ Hs) as [o1 [F1 F2]].
      destruct (IH1 _ _ _ _ HP E1 F1) as [S1 N1]. destruct (a_env r1) as [e1|] eqn:Ee1.
      + destruct (N1 e1 eq_refl) as [P1 [-> HI1]].
        destruct (analyze ng ctr sp f fuel s2 e1) as [r2|] eqn:E2; [|discriminate]. inversion Han; subst; cbn.
        destruct (IH2 _ _ _ _ HI1 E2 F2) as [S2 N2]. split; [apply safe_app; auto|exact N2].
      + inversion Han; subst. split; auto. rewrite Ee1. apply falls_none.
    - inversion Han; inversion Hs; subst. split; [apply safe_app; split; [apply safe_args|apply safe_target]|].
      now apply falls_some, Pinv_target.
    - inversion Han; inversion Hs as [[Ho Hm]]; subst. split; [apply safe_deref, never_norm; auto | now apply falls_some].
    - destruct (acond c e) as [[[et ef] trc] bc] eqn:Ec. destruct (cond_prot c P) as [[Pt Pf] okc] eqn:Fc.
      destruct (analyze ng ctr sp f fuel s1 et) as [r1|] eqn:E1; [|discriminate].
      destruct (analyze ng ctr sp f fuel s2 ef) as [r2|] eqn:E2; [|discriminate].
      destruct (stmt_prot s1 Pt) as [oa oka] eqn:F1. destruct (stmt_prot s2 Pf) as [ob okb] eqn:F2.
      inversion Han; inversion Hs as [[Ho Hok]]; subst; cbn.
      apply andb_true_iff in Hok as [Hok ->]. apply andb_true_iff in Hok as [-> ->].
      destruct (acond_prot _ _ _ _ _ _ _ _ _ HP Ec Fc) as [At [Af Sc]].
      destruct (IH1 _ _ _ _ At E1 F1) as [S1 N1]. destruct (IH2 _ _ _ _ Af E2 F2) as [S2 N2].
      split; [apply safe_app; split; auto; apply safe_app; auto | now apply falls_join].
    - (* the protected variables the body does not assign are protected in every round, hence at the loop invariant *)
      set (P' := filter (fun x => negb (pmem x (assigned body))) P) in *.
      destruct (cond_prot c P') as [[Pt Pf] okc] eqn:Fc. destruct (stmt_prot body Pt) as [ob okb] eqn:Fb.
      inversion Hs as [[Ho Hok]]. apply andb_true_iff in Hok as [-> ->]. subst oP.
      destruct (analyze_while (Pinv P') _ _ _ _ _ _ _ _ _ Han) as [einv [rb [et [ef [trc [bc [Hinv [Ec [Eb [_ [_ ->]]]]]]]]]]].
      { eapply Pinv_sub; [|exact HP]. intros x Hx. apply pmem_unassigned in Hx. tauto. }
      { intros e0 r0 eb H0 Ha He. unfold cond_true in Ha. destruct (acond c e0) as [[[et0 ef0] tr0] b0] eqn:Ec0. cbn in Ha.
        destruct (acond_prot _ _ _ _ _ _ _ _ _ H0 Ec0 Fc) as [At _].
        destruct (IH _ _ _ _ At Ha Fb) as [_ N]. destruct (N _ He) as [Pe [-> Ie]].
        eapply Pinv_sub; [|apply Pinv_join; [exact H0 | exact Ie]]. intros x Hx. apply pmem_pinter. split; auto.
        apply (prot_frame body Pt Pe true x Fb); [apply (cond_prot_mono _ _ _ _ _ x Fc Hx)|]. apply pmem_unassigned in Hx. tauto. }
      destruct (acond_prot _ _ _ _ _ _ _ _ _ Hinv Ec Fc) as [At [Af Sc]]. destruct (IH _ _ _ _ At Eb Fb) as [Sb _].
      split; [apply safe_app; auto | now apply falls_some].
    - inversion Han; inversion Hs; subst. split; [apply safe_cond_cons | apply falls_none].
    - inversion Han; inversion Hs as [[Ho Hm]]; subst. split; [|now apply falls_some, Pinv_target].
      apply safe_app. split; [apply safe_deref, never_norm; auto|]. apply safe_app. split; [apply safe_args|apply safe_target].
    - inversion Han; inversion Hs; subst. split; [|apply falls_none]. cbn.
      destruct (forallb _ (prods_of_atom e er)); [apply safe_nil|apply safe_cond_cons].
    - inversion Han; inversion Hs; subst. split; [apply safe_args | now apply falls_some, Pinv_call2].
    - inversion Han; inversion Hs; subst. split; [|apply falls_none].
      apply safe_app. split; [apply safe_args | apply safe_cons_site, safe_nil].
  Qed.
End Analysis.

(* whole programs: all dereferences protected => the emitted constraints contain no sink at all, hence no flow *)
Lemma safe_no_sink ts : safe ts -> forall t a, In t ts -> In a (atoms_of_trigger (etrig t)) ->
  match a with ASnk _ | ADirect _ => False | _ => True end.
Proof.
  intros H t a Ht Ha. pose proof (sink_atom_inv _ _ Ha) as K.
  destruct a; auto; destruct K as [Kc Kp]; apply Kp, (H t Ht); cbn in Kc; destruct (s_cons t); auto; discriminate.
Qed.

Lemma no_sink_no_flow ts :
  (forall t a, In t ts -> In a (atoms_of_trigger t) -> match a with ASnk _ | ADirect _ => False | _ => True end) ->
  ~ has_flow (csys_of [] [] ts).
Proof.
  intros H.
  assert (NoSink : forall a, act (csys_of [] [] ts) a -> match a with ASnk _ | ADirect _ => False | _ => True end).
  { intros a [Ha|[k [Ha _]]].
    - apply In_base_csys_of in Ha. destruct Ha as [[f [[] _]]|[[]|[t [Ht [_ Ha]]]]]. exact (H _ _ Ht Ha).
    - apply In_ctld_csys_of in Ha. destruct Ha as [t [Ht [_ Ha]]]. exact (H _ _ Ht Ha). }
  intros [[t Ht]|[s [_ Hs]]]; [exact (NoSink _ Ht)|].
  induction Hs as [s Ha|p c t Ha Hc IH]; auto. exact (NoSink _ Ha).
Qed.

Lemma safe_decl gi : forall k, safe (decl_triggers k gi).
Proof.
  induction gi as [|b gi IH]; intros k; cbn; [apply safe_nil|]. apply safe_app. split; auto.
  destruct b; [apply safe_nil | apply safe_cons_site, safe_nil].
Qed.

Lemma analyze_funcs_safe ng fuel ctr sp : forall fds f0 tss b,
  analyze_funcs ng fuel ctr sp f0 fds = Some (tss, b) ->
  forallb (fun fd => snd (stmt_prot (f_body fd) [])) fds = true -> forall tg, In tg tss -> safe tg.
Proof.
  induction fds as [|fd fds IH]; intros f0 tss b H Hg; cbn in H; [inversion H; subst; intros tg []|].
  cbn in Hg. apply andb_true_iff in Hg as [Hg1 Hg2].
  destruct (analyze_func ng fuel ctr (sp f0) f0 fd) as [[t1 b1]|] eqn:E1; [|discriminate].
  destruct (analyze_funcs ng fuel ctr sp (S f0) fds) as [[t2 b2]|] eqn:E2; [|discriminate].
  inversion H; subst. intros tg [<-|Hin]; [|eapply IH; eauto].
  destruct (analyze_func_inv _ _ _ _ _ _ _ _ E1) as [r [Ea [_ ->]]].
  destruct (stmt_prot (f_body fd) []) as [oP ok] eqn:Es. cbn in Hg1. subst ok.
  assert (HP : Pinv [] (entry_env f0 0 (f_nparams fd))) by (intros x Hx; discriminate).
  destruct (analyze_prot ng ctr (sp f0) f0 fuel _ _ _ _ _ HP Ea Es) as [S _].
  apply safe_app. split; auto. destruct (a_env r); [apply safe_cons_site|]; apply safe_nil.
Qed.

Lemma safe_dups g cs tg : safe tg -> safe (dups g cs tg).
Proof.
  intros H t Ht Hc. unfold dups in Ht. apply in_map_iff in Ht. destruct Ht as [t0 [<- Ht0]].
  apply filter_In in Ht0. destruct Ht0 as [Ht0 _]. unfold dupt in Hc |- *. cbn in Hc |- *.
  destruct (is_res_cons g t0) eqn:Er; [discriminate|].
  specialize (H t0 Ht0 Hc). destruct (is_param_prod g t0) eqn:Ep; auto.
  unfold is_param_prod in Ep. apply prod_eqb_eq in Ep. rewrite Ep in H. discriminate.
Qed.

Lemma safe_dups_all ctr sp tss : (forall tg, In tg tss -> safe tg) -> forall fds f0 dg, In dg (dups_all ctr sp tss f0 fds) -> safe dg.
Proof.
  intros H. induction fds as [|fd fds IH]; intros f0 dg Hin; [destruct Hin|]. destruct Hin as [<-|Hin]; eauto.
  apply safe_flat_map. intros [g cs]. cbn. destruct (ctr g && sp f0 g); [|apply safe_nil]. apply safe_dups.
  destruct (nth_in_or_default g tss []) as [Hin|E]; [auto | rewrite E; apply safe_nil].
Qed.

Lemma safe_iaffil p kk : safe (iaffil p kk).
Proof.
  unfold iaffil. generalize 0. induction (isig p (fst kk)) as [|np sig IH]; intros m; cbn [ilink_methods]; [apply safe_nil|].
  apply safe_app. split; [|apply IH]. apply safe_cons_site, safe_cond_cons.
Qed.

Lemma safe_affil p kj : safe (affil p kj).
Proof.
  unfold affil. generalize 0. induction (firstn (length (isig p (fst kj))) (nth (snd kj) (p_impls p) [])) as [|f row IH]; intros m; cbn; [apply safe_nil|].
  apply safe_app. split; [|apply IH].
  destruct (nth_error (p_funcs p) f); [|apply safe_nil]. apply safe_cons_site, safe_cond_cons.
Qed.

Lemma safe_drop rs sp : forall tss f, (forall tg, In tg tss -> safe tg) -> forall tg, In tg (drop_safe rs sp f tss) -> safe tg.
Proof.
  induction tss as [|ts tss IH]; intros f H tg Hin; [destruct Hin|]. destruct Hin as [<-|Hin].
  - intros t Ht. apply filter_In in Ht. apply (H ts); [now left | tauto].
  - eapply IH; eauto. intros tg' Hi. apply H. now right.
Qed.

Theorem guarded_no_flow prog afuel ctr pk r :
  guarded prog = true -> analyze_program afuel ctr pk prog = Some r -> ~ has_flow (csys_of [] [] (all_triggers r)).
Proof.
  intros Hg Han. destruct (analyze_program_inv _ _ _ _ _ Han) as [tss [Ef [Ed [Efu [_ [Edu [Eaf _]]]]]]].
  pose proof (analyze_funcs_safe _ _ _ _ _ _ _ _ Ef Hg) as Sf.
  assert (S : safe (all_strigs r)).
  { unfold all_strigs. rewrite Ed, Efu, Edu, Eaf. repeat (apply safe_app; split); [apply safe_decl | apply safe_concat ..].
    - now apply safe_drop.
    - intros dg Hd. eapply safe_dups_all; eauto.
    - intros ag Ha. apply in_map_iff in Ha as [fd [<- _]].
      apply safe_app. split; apply safe_flat_map; [apply safe_affil | apply safe_iaffil]. }
  apply no_sink_no_flow. intros t a Ht Ha. apply in_map_iff in Ht as [t0 [<- Ht0]]. eapply safe_no_sink; eauto.
Qed.
