(* Soundness of the contract inference (model M10, coq/model/Infer.v):
   whenever the validated inference (infer_checked) says contract(nonnil -> nonnil), every execution of the abstract
   SSA function that reaches a `return r` with a non-nil contracted parameter returns a non-nil r.

   The semantics of the abstract SSA form is the one nilaway's own notion of nilness induces:
     - an environment gives every value "is nil now";
     - the constant nil is nil, allocations / addresses / closures / makes / append(x, e...) are non-nil, a wrapper
       (ChangeInterface, MakeInterface -- nilaway takes an interface holding a nil pointer for nil --, Slice, append(x),
       SliceToArrayPointer to a zero-length array) is nil exactly if its operand is, append(x, s...) is non-nil if x is,
       anything else (calls, loads, field reads, ...) can be either -- the environment is arbitrary there (envok);
       "wrapper in step with its operand" is exact for `semiplain` functions (operand computed in the same block, or
       never computed by an instruction), and otherwise an idealisation (see envok);
     - taking the edge p -> b out of `if x == y`: on the equal edge x and y are both nil or both non-nil (two nil values
       are equal, a nil value never equals a non-nil one); on the not-equal edge they are not both nil;
     - entering b, the phis of b take -- in parallel -- the values their operand on that edge had, the other
       instructions of b compute arbitrary new values (again within envok), every other value is unchanged.
   The theorem is by an inductive invariant over executions: in every reachable state (b, env) some table of block b
   holds of env.  The invariant is preserved because the final state of the work-list loop is a post-fixpoint
   (`stable`, a boolean the model evaluates: translation validation), and because learn / enter are sound
   (learn_sound, enter_sound). *)
From Coq Require Import List Bool PeanoNat Lia.
From NM Require Import Infer.
From NP Require Import ListFacts.
Import ListNotations.

Lemma forallb_idx_spec {A} (f : nat -> A -> bool) l : forall i0,
  forallb_idx f i0 l = true <-> forall idx x, nth_error l idx = Some x -> f (i0 + idx) x = true.
Proof.
  induction l as [|y l IH]; intros i0; simpl.
  - split; [intros _ [|idx] x; discriminate|reflexivity].
  - split.
    + intros H. apply andb_prop in H. destruct H as [Hy H].
      intros [|idx] x; simpl; [intros [= <-]; now rewrite Nat.add_0_r|].
      rewrite <- Nat.add_succ_comm. now apply IH.
    + intros H. apply andb_true_intro. split; [rewrite <- (Nat.add_0_r i0); exact (H 0 y eq_refl)|].
      apply IH. intros idx x N. rewrite Nat.add_succ_comm. exact (H (S idx) x N).
Qed.

Inductive sorted : table -> Prop :=
  | sorted_nil : sorted []
  | sorted_cons k v t : sorted t -> (forall k' v', In (k', v') t -> k < k') -> sorted ((k, v) :: t).

Lemma tget_in t k v : tget t k = Some v -> In (k, v) t.
Proof.
  induction t as [|[k0 v0] t IH]; simpl; [discriminate|].
  destruct (Nat.eqb_spec k0 k) as [->|N]; [intros [= ->]; now left|].
  destruct (Nat.ltb k k0); [discriminate|]. intros H; right; auto.
Qed.

Lemma in_tget t k v : sorted t -> In (k, v) t -> tget t k = Some v.
Proof.
  induction 1 as [|k0 v0 t S IH B]; simpl; [tauto|].
  intros [[= -> ->]|I].
  - now rewrite Nat.eqb_refl.
  - pose proof (B _ _ I) as L.
    destruct (Nat.eqb_spec k0 k) as [->|N]; [lia|].
    destruct (Nat.ltb_spec k k0); [lia|]. auto.
Qed.

Lemma tget_none t k v : sorted t -> tget t k = None -> ~ In (k, v) t.
Proof. intros S H I. rewrite (in_tget _ _ _ S I) in H. discriminate. Qed.

(* a table is the finite map that tget reads off it: tset and tdel are known by what tget returns afterwards *)
Lemma tget_tset t k v k' : tget (tset t k v) k' = if Nat.eqb k' k then Some v else tget t k'.
Proof.
  induction t as [|[k0 v0] t IH]; simpl.
  - rewrite (Nat.eqb_sym k k'). destruct (Nat.eqb k' k); [reflexivity|]. now destruct (Nat.ltb k' k).
  - destruct (Nat.eqb_spec k0 k) as [->|N]; [|destruct (Nat.ltb_spec k k0) as [L|L]]; simpl.
    + rewrite (Nat.eqb_sym k k'). now destruct (Nat.eqb k' k).
    + rewrite (Nat.eqb_sym k k'). destruct (Nat.eqb k' k); [reflexivity|].
      destruct (Nat.ltb_spec k' k) as [L'|_]; [|reflexivity].
      destruct (Nat.eqb_spec k0 k'); [lia|]. destruct (Nat.ltb_spec k' k0); [reflexivity|lia].
    + rewrite IH. clear IH. destruct (Nat.eqb_spec k' k) as [->|_]; [|reflexivity].
      destruct (Nat.eqb_spec k0 k); [contradiction|]. destruct (Nat.ltb_spec k k0); [lia|reflexivity].
Qed.

Lemma tset_sorted t k v : sorted t -> sorted (tset t k v).
Proof.
  induction 1 as [|k0 v0 t S IS B]; simpl.
  - constructor; [constructor|intros k' v' []].
  - destruct (Nat.eqb_spec k0 k) as [->|N]; [now constructor|].
    destruct (Nat.ltb_spec k k0) as [L|L].
    + constructor; [now constructor|]. intros k' v' [[= <- <-]|I]; [exact L|]. pose proof (B _ _ I). lia.
    + constructor; [exact IS|]. intros k' v' I. apply (in_tget _ _ _ IS) in I. rewrite tget_tset in I.
      destruct (Nat.eqb_spec k' k) as [->|_]; [lia|exact (B _ _ (tget_in _ _ _ I))].
Qed.

Lemma tget_below t k0 k : (forall k' v', In (k', v') t -> k0 < k') -> k <= k0 -> tget t k = None.
Proof.
  intros B L. destruct (tget t k) as [v|] eqn:G; [|reflexivity]. pose proof (B _ _ (tget_in _ _ _ G)). lia.
Qed.

Lemma tdel_spec t k : sorted t ->
  sorted (tdel t k) /\ forall k', tget (tdel t k) k' = if Nat.eqb k' k then None else tget t k'.
Proof.
  induction 1 as [|k0 v0 t S [IS IG] B]; simpl.
  - split; [constructor|]. intros k'. now destruct (Nat.eqb k' k).
  - destruct (Nat.eqb_spec k0 k) as [->|N].
    + split; [exact S|]. intros k'.
      destruct (Nat.eqb_spec k' k) as [->|N]; [apply tget_below with k; auto|].
      destruct (Nat.eqb_spec k k'); [congruence|].
      destruct (Nat.ltb_spec k' k); [apply tget_below with k; auto; lia|reflexivity].
    + split.
      * constructor; [exact IS|]. intros k' v' I. apply (in_tget _ _ _ IS) in I. rewrite IG in I.
        destruct (Nat.eqb k' k); [discriminate|exact (B _ _ (tget_in _ _ _ I))].
      * intros k'. simpl. rewrite IG. destruct (Nat.eqb_spec k' k) as [->|_]; [|reflexivity].
        destruct (Nat.eqb_spec k0 k); [contradiction|]. now destruct (Nat.ltb k k0).
Qed.

Lemma kill_spec vs : forall t, sorted t ->
  sorted (kill t vs) /\ forall k, tget (kill t vs) k = if existsb (Nat.eqb k) vs then None else tget t k.
Proof.
  unfold kill. induction vs as [|v vs IH]; simpl; intros t S; [auto|].
  destruct (tdel_spec t v S) as [S' G]. destruct (IH _ S') as [S'' G'']. split; [exact S''|].
  intros k. rewrite G'', G. now destruct (Nat.eqb k v), (existsb (Nat.eqb k) vs).
Qed.

Lemma nn_eqb_eq a b : nn_eqb a b = true <-> a = b.
Proof. destruct a, b; simpl; split; congruence. Qed.

Lemma table_eqb_eq a b : table_eqb a b = true <-> a = b.
Proof.
  split.
  - revert b; induction a as [|[k v] a IH]; intros [|[k' v'] b]; simpl; try discriminate; [reflexivity|].
    intros H. apply andb_prop in H; destruct H as [H H3]. apply andb_prop in H; destruct H as [H1 H2].
    apply Nat.eqb_eq in H1. apply nn_eqb_eq in H2. now rewrite H1, H2, (IH _ H3).
  - intros <-. induction a as [|[k v] a IH]; simpl; [reflexivity|]. rewrite Nat.eqb_refl, IH. now destruct v.
Qed.

Lemma table_in l t : existsb (table_eqb t) l = true <-> In t l.
Proof. apply existsb_eq_in, table_eqb_eq. Qed.

Definition env := nat -> bool.                       (* true = the value is nil now *)
Definition agrees (n : nn) (b : bool) : Prop :=
  match n with NNil => b = true | NNon => b = false | NUnk => True end.
Definition holds (t : table) (e : env) : Prop := forall k n, In (k, n) t -> agrees n (e k).

Lemma holds_nil e : holds [] e.
Proof. intros k n []. Qed.

(* what the soundness lemmas hand on: a table in the form the algorithm keeps that is true of the environment *)
Definition good (t : table) (e : env) : Prop := sorted t /\ holds t e.

Lemma good_nil e : good [] e.
Proof. split; [constructor|apply holds_nil]. Qed.

Lemma good_tget t e : sorted t -> (forall k n, tget t k = Some n -> agrees n (e k)) -> good t e.
Proof. intros S H. split; [exact S|]. intros k n I. exact (H k n (in_tget t k n S I)). Qed.

Lemma good_tset t k n e : good t e -> agrees n (e k) -> good (tset t k n) e.
Proof.
  intros [S H] A. apply good_tget; [now apply tset_sorted|].
  intros k' n'. rewrite tget_tset. destruct (Nat.eqb_spec k' k) as [->|_]; [now intros [= <-]|].
  intros G. exact (H _ _ (tget_in _ _ _ G)).
Qed.

Lemma add_all_sound l t e : good t e -> holds l e -> good (add_all t l) e.
Proof.
  intros G Hl. unfold add_all. apply fold_left_invariant; [exact G|].
  intros a [k n] I Ga. exact (good_tset a k n e Ga (Hl _ _ I)).
Qed.

Lemma good_kill vs t e e' : good t e -> (forall v, ~ In v vs -> e' v = e v) -> good (kill t vs) e'.
Proof.
  intros [S H] Fr. destruct (kill_spec vs t S) as [S' G]. apply good_tget; [exact S'|].
  intros k n. rewrite G. destruct (existsb (Nat.eqb k) vs) eqn:X; [discriminate|].
  intros Gk. rewrite (Fr k) by now apply existsb_eqb_notin. exact (H _ _ (tget_in _ _ _ Gk)).
Qed.

Section Fn.
  Variable F : ifn.
  Hypothesis Hwf : wf_fn F = true.

  (* what every state of an execution satisfies: the intrinsic nilness of constants and allocations, and wrapper values
     in step with their operand (exact for `semiplain` functions, where the operand is computed in the same block or
     never; otherwise an idealisation that SSA dominance justifies: a wrapper is only used where it is in step) *)
  Definition envok (e : env) : Prop :=
    forall v, match kind_of F v with
              | IVNil => e v = true
              | IVNonNil => e v = false
              | IVChg x | IVMk x | IVSlice x | IVAppend1 x => e v = e x
              | IVS2AP x lenpos => if lenpos then e v = false else e v = e x
              | IVAppendN x lit => if lit then e v = false else (e x = false -> e v = false)
              | _ => True
              end.

  Lemma nilness_of_sound fuel : forall t e v, envok e -> holds t e -> agrees (nilness_of F fuel t v) (e v).
  Proof.
    induction fuel as [|f IH]; intros t e v E H; simpl; auto.
    assert (LK : agrees (match tget t v with Some x => x | None => NUnk end) (e v)).
    { destruct (tget t v) eqn:G; simpl; auto. apply tget_in in G. exact (H _ _ G). }
    pose proof (E v) as Ev.
    destruct (kind_of F v) as [| | | |x|x|x|x lp|x|x lit|edges|] eqn:K; simpl; auto;
      try (pose proof (IH t e x E H) as Ax; destruct (nilness_of F f t x); simpl in *; auto; congruence).
    - (* SliceToArrayPointer *)
      pose proof (IH t e x E H) as Ax. destruct lp.
      + destruct (nilness_of F f t x); simpl; auto.
      + destruct (nilness_of F f t x); simpl in *; auto; congruence.
    - (* append(x, ...) *)
      destruct lit; [exact Ev|].
      pose proof (IH t e x E H) as Ax. destruct (nilness_of F f t x); simpl in *; auto.
  Qed.

  Lemma nof_sound t e v : envok e -> holds t e -> agrees (nof F t v) (e v).
  Proof. apply nilness_of_sound. Qed.

  Lemma expand_sound fuel : forall t v n e, envok e -> good t e -> agrees n (e v) -> good (expand F fuel t v n) e.
  Proof.
    induction fuel as [|f IH]; intros t v n e E G A; simpl; [exact G|].
    destruct (tget t v); [exact G|].
    pose proof (good_tset t v n e G A) as G1. pose proof (E v) as Ev.
    destruct (kind_of F v); try exact G1; apply IH; auto; rewrite <- Ev; exact A.
  Qed.

  Lemma exp_sound t v n e : envok e -> good t e -> agrees n (e v) -> good (exp F t v n) e.
  Proof. apply expand_sound. Qed.

  Definition eq_succ (p : nat) (iseq : bool) :=
    if iseq then nth 0 (ib_succs (block F p)) 0 else nth 1 (ib_succs (block F p)) 0.
  Definition ne_succ (p : nat) (iseq : bool) :=
    if iseq then nth 1 (ib_succs (block F p)) 0 else nth 0 (ib_succs (block F p)) 0.

  (* what taking the edge p -> b says about the environment *)
  Definition edge_ok (p b : nat) (e : env) : Prop :=
    match ib_if (block F p) with
    | None => True
    | Some (iseq, x, y) =>
        (b = eq_succ p iseq /\ e x = e y) \/ (b = ne_succ p iseq /\ (e x = false \/ e y = false))
    end.

  Lemma block_wf p : wf_blk F (block F p) = true.
  Proof. unfold block. apply forallb_nth_default; [exact Hwf|reflexivity]. Qed.

  Lemma succs_differ p iseq x y : ib_if (block F p) = Some (iseq, x, y) -> eq_succ p iseq <> ne_succ p iseq.
  Proof.
    intros I. pose proof (block_wf p) as W. unfold wf_blk in W. rewrite I in W.
    apply andb_prop in W; destruct W as [W _]. apply negb_true_iff, Nat.eqb_neq in W.
    unfold eq_succ, ne_succ; destruct iseq; congruence.
  Qed.

  Lemma learn_sound p b t e : envok e -> holds t e -> edge_ok p b e ->
    exists l, learn F b p t = Some l /\ sorted l /\ holds l e.
  Proof.
    intros E H Ed. unfold learn, edge_ok in *.
    destruct (ib_if (block F p)) as [[[iseq x] y]|] eqn:I; [|exists []; split; [reflexivity|apply good_nil]].
    pose proof (succs_differ _ _ _ _ I) as D.
    fold (eq_succ p iseq). fold (ne_succ p iseq).
    pose proof (nof_sound t e x E H) as Ax. pose proof (nof_sound t e y E H) as Ay.
    pose proof (good_nil e) as Nil.
    pose proof (fun v n => exp_sound [] v n e E Nil) as One.
    destruct Ed as [[-> Exy]|[-> Nb]].
    - rewrite Nat.eqb_refl.
      destruct (nof F t x), (nof F t y); simpl in *;
        try (eexists; split; [reflexivity|]; first [exact Nil | apply One; simpl; congruence]);
        congruence.
    - destruct (Nat.eqb_spec (ne_succ p iseq) (eq_succ p iseq)) as [Q|_]; [congruence|].
      rewrite Nat.eqb_refl.
      destruct (nof F t x), (nof F t y); simpl in *;
        try (eexists; split; [reflexivity|]; first [exact Nil | apply One; simpl; destruct Nb; congruence]);
        destruct Nb; congruence.
  Qed.

  (* entering b over its edge number idx *)
  Definition enters (b idx : nat) (e e' : env) : Prop :=
    (forall v, ~ In v (ib_phis (block F b)) -> ~ In v (ib_defs (block F b)) -> e' v = e v) /\
    (forall phi edges, In phi (ib_phis (block F b)) -> kind_of F phi = IVPhi edges -> e' phi = e (nth idx edges 0)) /\
    envok e'.

  Lemma enter_sound b idx t e e' : envok e -> good t e -> enters b idx e e' -> good (enter F b idx t) e'.
  Proof.
    intros E G (Fr & Ph & E'). unfold enter. apply fold_left_invariant.
    - unfold kill. rewrite <- fold_left_app. apply good_kill with e; [exact G|].
      intros v N. apply Fr; intros I; apply N, in_or_app; [left|right]; exact I.
    - intros a pc I Ga. apply in_map_iff in I. destruct I as (phi & <- & I). cbn [fst snd].
      destruct (kind_of F phi) as [| | | | | | | | | |edges|] eqn:K; try exact Ga.
      pose proof (nof_sound t e (nth idx edges 0) E (proj2 G)) as A. rewrite <- (Ph _ _ I K) in A.
      destruct (nof F t (nth idx edges 0)); [apply exp_sound; assumption..|exact Ga].
  Qed.

  Definition step (p : nat) (e : env) (b : nat) (e' : env) : Prop :=
    In b (ib_succs (block F p)) /\ edge_ok p b e /\
    exists idx, nth_error (ib_preds (block F b)) idx = Some p /\ enters b idx e e'.

  Inductive reach : nat -> env -> Prop :=
    | reach_entry e : envok e -> reach 0 e
    | reach_step p e b e' : reach p e -> step p e b e' -> reach b e'.

  Lemma reach_envok b e : reach b e -> envok e.
  Proof. destruct 1 as [e E|p e b e' _ (_ & _ & idx & _ & _ & _ & E)]; auto. Qed.

  Lemma reach_param b e : reach b e -> exists e0, envok e0 /\ e (if_param F) = e0 (if_param F).
  Proof.
    induction 1 as [e E|p e b e' R (e0 & E0 & IH) (_ & _ & idx & _ & Fr & _ & _)]; [exists e; auto|].
    exists e0; split; auto. rewrite <- IH.
    pose proof (block_wf b) as W. unfold wf_blk in W. apply andb_prop in W; destruct W as [_ W].
    apply negb_true_iff, existsb_eqb_notin in W.
    apply Fr; intros I; apply W, in_or_app; tauto.
  Qed.

  Definition covers (sets0 : list (nat * list table)) : Prop :=
    forall b e, reach b e -> exists t, In t (tables_or_top sets0 b) /\ sorted t /\ holds t e.

  Lemma covers_nothing : covers [].
  Proof. intros b e _. exists []. split; [now left|apply good_nil]. Qed.

  Lemma is_seen_in s b : is_seen s b = true <-> In b (i_seen s).
  Proof. apply existsb_eqb_in. Qed.

  (* a table that `covered` accepts stands for one the block has, or for the table that knows nothing *)
  Lemma covered_good s b t e : covered s b t = true -> good t e ->
    exists t', In t' (tables_or_top (i_sets s) b) /\ good t' e.
  Proof.
    intros C G. unfold covered, set_of in C. unfold tables_or_top.
    destruct (aget (i_sets s) b) as [[|x l]|]; [| |]; try (exists []; split; [now left|apply good_nil]).
    exists t. split; [now apply table_in|exact G].
  Qed.

  Definition Inv (s : ist) (b : nat) (e : env) : Prop :=
    is_seen s b = true /\ exists t, In t (tables_or_top (i_sets s) b) /\ sorted t /\ holds t e.

  Lemma stable_inv s : stable F s = true -> forall b e, reach b e -> Inv s b e.
  Proof.
    unfold stable. rewrite !andb_true_iff, forallb_forall. intros [[Seen0 Set0] Edges].
    induction 1 as [e E|p e b e' R [SeenP (t & It & Gt)] (Sc & Ed & idx & Pi & En)].
    - split; [exact Seen0|]. apply covered_good with []; [|apply good_nil].
      unfold covered. destruct (set_of s 0); [reflexivity|discriminate].
    - apply is_seen_in in SeenP.
      pose proof (proj1 (forallb_forall _ _) (Edges _ SeenP) _ Sc) as Eb.
      apply andb_prop in Eb; destruct Eb as [SeenB Idx]. split; [exact SeenB|].
      pose proof (proj1 (forallb_idx_spec _ _ _) Idx _ _ Pi) as Q. simpl in Q. rewrite Nat.eqb_refl in Q.
      unfold stable_edge in Q. pose proof (proj1 (forallb_forall _ _) Q _ It) as Qt. cbv beta in Qt.
      pose proof (reach_envok _ _ R) as E.
      destruct (learn_sound p b t e E (proj2 Gt) Ed) as (l & L & _ & Hl). rewrite L in Qt.
      exact (covered_good _ _ _ _ Qt (enter_sound b idx _ e e' E (add_all_sound l t e Gt Hl) En)).
  Qed.

  Lemma stable_covers s : stable F s = true -> covers (i_sets s).
  Proof. intros St b e R. exact (proj2 (stable_inv s St b e R)). Qed.

  Lemma ret_blocks_in b r : ib_ret (block F b) = Some r -> In (b, r) (ret_blocks F).
  Proof.
    intros Rt. unfold ret_blocks. apply in_flat_map.
    assert (L : b < length (if_blocks F)).
    { destruct (Nat.lt_ge_cases b (length (if_blocks F))); auto.
      unfold block in Rt. rewrite nth_overflow in Rt by auto. discriminate. }
    exists (b, block F b). split; [|simpl; rewrite Rt; now left].
    assert (Hb : nth b (seq 0 (length (if_blocks F))) 0 = b) by exact (seq_nth 0 0 L).
    unfold block. rewrite <- Hb at 1. rewrite <- combine_nth by apply seq_length.
    apply nth_In. rewrite combine_length, seq_length. lia.
  Qed.

  Lemma derive_sound sets0 : covers sets0 -> derive F sets0 = true ->
    forall b e r, reach b e -> ib_ret (block F b) = Some r -> e (if_param F) = false -> e r = false.
  Proof.
    intros Cv D b e r R Rt Pn. unfold derive in D.
    destruct (existsb (counterex F) (ret_checks F sets0)) eqn:X; [discriminate|].
    destruct (Cv _ _ R) as (t & It & St & Ht).
    assert (Cx : counterex F (nof F t (if_param F), nof F t r, r) = false).
    { apply (proj1 (existsb_false (counterex F) _) X). unfold ret_checks. apply in_flat_map.
      exists (b, r). split; [now apply ret_blocks_in|]. simpl. apply in_map_iff. exists t; auto. }
    pose proof (reach_envok _ _ R) as E.
    pose proof (nof_sound t e (if_param F) E Ht) as Ap. pose proof (nof_sound t e r E Ht) as Ar.
    unfold counterex in Cx.
    destruct (nof F t (if_param F)), (nof F t r); simpl in Cx, Ap, Ar; try congruence.
    apply negb_false_iff, Nat.eqb_eq in Cx. now rewrite <- Cx.
  Qed.

  Theorem infer_checked_sound fuel : infer_checked F fuel = true ->
    forall b e r, reach b e -> ib_ret (block F b) = Some r -> e (if_param F) = false -> e r = false.
  Proof.
    unfold infer_checked. rewrite Hwf. simpl.
    destruct (derive F []) eqn:D0.
    - intros _. now apply derive_sound with (sets0 := []); [apply covers_nothing|].
    - destruct (loop F fuel _ _) as [| |s]; try discriminate.
      intros H. apply andb_prop in H; destruct H as [St D].
      apply derive_sound with (sets0 := i_sets s); auto using stable_covers.
  Qed.

  Corollary infer_checked_contract fuel : infer_checked F fuel = true ->
    forall b e r, reach b e -> ib_ret (block F b) = Some r ->
    exists e0, envok e0 /\ e (if_param F) = e0 (if_param F) /\ (e0 (if_param F) = false -> e r = false).
  Proof.
    intros H b e r R Rt. destruct (reach_param _ _ R) as (e0 & E0 & P). exists e0; repeat split; auto.
    intros N. apply (infer_checked_sound fuel H b e r R Rt). congruence.
  Qed.
End Fn.

(* the hypothesis wf_fn is part of infer_checked itself *)
Theorem infer_checked_is_sound F fuel : infer_checked F fuel = true ->
  forall b e r, reach F b e -> ib_ret (block F b) = Some r -> e (if_param F) = false -> e r = false.
Proof.
  intros H. apply infer_checked_sound with fuel; [|exact H].
  unfold infer_checked in H. now destruct (wf_fn F).
Qed.

Definition blk preds succs phis defs i r :=
  {| ib_preds := preds; ib_succs := succs; ib_phis := phis; ib_defs := defs; ib_if := i; ib_ret := r |}.

(* func f(p *T) *T { if p == nil { return nil }; return p } *)
Definition ex_guard : ifn :=
  {| if_param := 0; if_vals := [IVParam; IVNil];
     if_blocks := [blk [] [1; 2] [] [] (Some (true, 0, 1)) None; blk [0] [] [] [] None (Some 1); blk [0] [] [] [] None (Some 0)] |}.

(* func f(p *T) *T { a, b := new(T), new(T); if p == nil || a != b { return nil }; return p }   (finding F45) *)
Definition ex_distinct : ifn :=
  {| if_param := 0; if_vals := [IVParam; IVNil; IVNonNil; IVNonNil];
     if_blocks := [blk [] [1; 2] [] [2; 3] (Some (true, 0, 1)) None;
                   blk [0; 2] [] [] [] None (Some 1);
                   blk [0] [1; 3] [] [] (Some (false, 2, 3)) None;
                   blk [2] [] [] [] None (Some 0)] |}.

(* func f(p *T) *T { if p == nil { return nil }; r := p; for cond() { r = p }; return r }: a loop with a phi;
   v2 = phi [p, p], v3 = cond() *)
Definition ex_loop : ifn :=
  {| if_param := 0; if_vals := [IVParam; IVNil; IVPhi [0; 0]; IVOther];
     if_blocks := [blk [] [1; 2] [] [] (Some (true, 0, 1)) None;
                   blk [0] [] [] [] None (Some 1);
                   blk [0; 3] [3; 4] [2] [3] None None;
                   blk [2] [2] [] [] None None;
                   blk [2] [] [] [] None (Some 2)] |}.

(* func f(p *T) I { if p == nil { return nil }; return p }: the returned value is MakeInterface p *)
Definition ex_iface : ifn :=
  {| if_param := 0; if_vals := [IVParam; IVNil; IVMk 0];
     if_blocks := [blk [] [1; 2] [] [] (Some (true, 0, 1)) None; blk [0] [] [] [] None (Some 1); blk [0] [] [] [2] None (Some 2)] |}.

Example infer_wrapper_example :
  infer_checked ex_iface 100 = true /\ infer ex_iface 100 = IInferred /\ plain ex_iface = false /\ semiplain ex_iface = true.
Proof. vm_compute. repeat split. Qed.

Example infer_checked_examples :
  infer_checked ex_guard 100 = true /\ infer ex_guard 100 = IInferred /\
  infer_checked ex_loop 100 = true /\ infer ex_loop 100 = IInferred /\
  infer_checked ex_distinct 100 = false /\ infer ex_distinct 100 = INotInferred.
Proof. vm_compute. repeat split. Qed.

Lemma step_same F p b idx e : envok F e -> In b (ib_succs (block F p)) -> edge_ok F p b e ->
  nth_error (ib_preds (block F b)) idx = Some p -> ib_phis (block F b) = [] -> step F p e b e.
Proof.
  intros E Sc Ed Pi Ph. split; [exact Sc|split; [exact Ed|exists idx; split; [exact Pi|]]].
  split; [reflexivity|split; [rewrite Ph; intros phi edges []|exact E]].
Qed.

(* the semantics has the execution that refutes the contract the unrepaired code gave ex_distinct:
   p non-nil, a and b non-nil and different, the function returns the constant nil *)
Example distinct_returns_nil :
  exists b e r, reach ex_distinct b e /\ ib_ret (block ex_distinct b) = Some r /\ e (if_param ex_distinct) = false /\ e r = true.
Proof.
  set (e := fun v : nat => Nat.eqb v 1).
  assert (E : envok ex_distinct e) by (intros [|[|[|[|[|v]]]]]; vm_compute; auto).
  exists 1, e, 1. split; [|vm_compute; auto].
  apply reach_step with 2 e; [apply reach_step with 0 e; [now constructor|]|].
  - apply step_same with 0; [exact E|simpl; tauto|right; vm_compute; auto|reflexivity|reflexivity].
  - apply step_same with 1; [exact E|simpl; tauto|right; vm_compute; auto|reflexivity|reflexivity].
Qed.

(* and ex_guard has an execution that reaches a return with a non-nil parameter: the theorem is not vacuous *)
Example guard_reaches_return :
  exists b e r, reach ex_guard b e /\ ib_ret (block ex_guard b) = Some r /\ e (if_param ex_guard) = false.
Proof.
  set (e := fun v : nat => Nat.eqb v 1).
  assert (E : envok ex_guard e) by (intros [|[|[|v]]]; vm_compute; auto).
  exists 2, e, 0. split; [|vm_compute; auto].
  apply reach_step with 0 e; [now constructor|].
  apply step_same with 0; [exact E|simpl; tauto|right; vm_compute; auto|reflexivity|reflexivity].
Qed.
