(* C18: names relative to the working directory (model/Paths.v) identify files, relocate with the module, and lead back to
   the absolute name that sorts the diagnostics. *)
From Coq Require Import List PeanoNat.
From NM Require Import Paths.
Import ListNotations.

Lemma rel_common_root r c p : rel (r ++ c) (r ++ p) = rel c p.
Proof. induction r as [|x r IH]; cbn; auto. now rewrite Nat.eqb_refl. Qed.

Theorem rel_relocate r r' c p : rel (r ++ c) (r ++ p) = rel (r' ++ c) (r' ++ p).
Proof. now rewrite !rel_common_root. Qed.

Lemma rel_nil_l t : rel [] t = map Seg t.
Proof. destruct t; reflexivity. Qed.

(* from the module root (or the same place below it) the name is the module-relative name, wherever the module is *)
Theorem rel_from_root r p : rel r (r ++ p) = map Seg p.
Proof. rewrite <- (app_nil_r r) at 1. rewrite rel_common_root. apply rel_nil_l. Qed.

(* from an ancestor directory the name is the module-relative name behind a fixed prefix *)
Theorem rel_from_ancestor a m p : rel a (a ++ m ++ p) = map Seg (m ++ p).
Proof. apply rel_from_root. Qed.

Theorem rel_to_cwd_relative cwd l : rel_to_cwd cwd (Relp l) = Relp l.
Proof. reflexivity. Qed.

Example rel_example : rel [1;2;3] [1;2;4;5] = [Up; Seg 4; Seg 5] /\ rel [1;2] [1;2] = [] /\ rel [1;2;3] [1] = [Up; Up].
Proof. repeat split. Qed.

(* AbsFromCwd: the sort key of the diagnostics (finding F107) *)
Lemma join_ups (acc k : list seg) (r : list rseg) :
  join_clean (acc ++ k) (map (fun _ : seg => Up) k ++ r) = join_clean acc r.
Proof.
  revert acc r. induction k as [|x k IH] using rev_ind; intros acc r.
  - rewrite app_nil_r. reflexivity.
  - rewrite map_app. cbn [map]. rewrite <- app_assoc. cbn [app].
    (* one Up for x is consumed last: reorder *)
    assert (E : map (fun _ : seg => Up) k ++ Up :: r = Up :: map (fun _ : seg => Up) k ++ r).
    { clear. induction k as [|y k IHk]; cbn; [reflexivity|]. rewrite IHk. reflexivity. }
    rewrite E. cbn [join_clean]. rewrite app_assoc, removelast_last. apply IH.
Qed.

Lemma join_segs (acc t : list seg) : join_clean acc (map Seg t) = acc ++ t.
Proof.
  revert acc. induction t as [|s t IH]; intros acc; cbn [map join_clean].
  - rewrite app_nil_r. reflexivity.
  - rewrite IH, <- app_assoc. reflexivity.
Qed.

Lemma join_climb (pre base t : list seg) : join_clean (pre ++ base) (map (fun _ : seg => Up) base ++ map Seg t) = pre ++ t.
Proof. rewrite join_ups. apply join_segs. Qed.

(* the round trip: whatever the working directory, the key of a file is its absolute name *)
Theorem abs_of_rel : forall cwd t, join_clean cwd (rel cwd t) = t.
Proof.
  assert (G : forall cwd pre t, join_clean (pre ++ cwd) (rel cwd t) = pre ++ t).
  { induction cwd as [|b cwd IH]; intros pre t.
    - rewrite rel_nil_l. apply (join_climb pre []).
    - destruct t as [|x t]; cbn [rel]; [apply join_climb|].
      destruct (Nat.eqb b x) eqn:E; [|apply join_climb].
      apply Nat.eqb_eq in E. subst x. specialize (IH (pre ++ [b]) t). rewrite <- !app_assoc in IH. exact IH. }
  intros cwd t. exact (G cwd [] t).
Qed.

(* for a fixed working directory, relativised names identify files: rel cwd has a left inverse *)
Theorem rel_injective cwd t1 t2 : rel cwd t1 = rel cwd t2 -> t1 = t2.
Proof. intros H. rewrite <- (abs_of_rel cwd t1), H. apply abs_of_rel. Qed.

Theorem rel_cwd_independent c1 c2 t1 t2 : rel c1 t1 = rel c1 t2 <-> rel c2 t1 = rel c2 t2.
Proof. split; intros H; apply rel_injective in H; now subst. Qed.

Theorem sort_key_cwd_independent : forall c1 c2 t,
  abs_from_cwd c1 (rel_to_cwd c1 (Abs t)) = abs_from_cwd c2 (rel_to_cwd c2 (Abs t)).
Proof. intros c1 c2 t. cbn [rel_to_cwd abs_from_cwd]. rewrite !abs_of_rel. reflexivity. Qed.

(* relocation: the order of two files of one module does not depend on where the module lives *)
Theorem lex_relocate : forall r p q, lex_leb (r ++ p) (r ++ q) = lex_leb p q.
Proof. induction r as [|x r IH]; intros p q; cbn [app lex_leb]; [reflexivity|]. rewrite Nat.eqb_refl. apply IH. Qed.

Example sort_key_example :
  abs_from_cwd [1; 2; 3] (rel_to_cwd [1; 2; 3] (Abs [1; 2; 4; 5])) = [1; 2; 4; 5] /\
  rel_to_cwd [1; 2; 3] (Abs [1; 2; 4; 5]) = Relp [Up; Seg 4; Seg 5].
Proof. split; reflexivity. Qed.

Lemma portion_short {A} (l : list A) occ : length l <= occ + 1 -> portion_after_sep l occ = l.
Proof. intros H. unfold portion_after_sep. now rewrite (proj2 (Nat.sub_0_le _ _) H). Qed.

Lemma portion_length {A} (l : list A) occ : occ + 1 <= length l -> length (portion_after_sep l occ) = occ + 1.
Proof. intros H. unfold portion_after_sep. rewrite skipn_length. apply Nat.add_sub_eq_l, Nat.sub_add, H. Qed.

Lemma portion_suffix {A} (l : list A) occ : exists pre, l = pre ++ portion_after_sep l occ.
Proof. unfold portion_after_sep. exists (firstn (length l - (occ + 1)) l). now rewrite firstn_skipn. Qed.

Lemma portion_below {A} (r p : list A) occ : occ + 1 <= length p -> portion_after_sep (r ++ p) occ = portion_after_sep p occ.
Proof.
  intros H. unfold portion_after_sep. rewrite app_length, <- Nat.add_sub_assoc by exact H.
  rewrite skipn_app, skipn_all2 by apply Nat.le_add_r. now rewrite (Nat.add_comm (length r)), Nat.add_sub.
Qed.

Theorem portion_relocate {A} (r r' p : list A) occ : occ + 1 <= length p ->
  portion_after_sep (r ++ p) occ = portion_after_sep (r' ++ p) occ.
Proof. intros H. now rewrite !portion_below. Qed.
