(* Facts about the specification side of M1 (model/EngineSpec.v) that need no engine state: which atoms a
   constraint system built by csys_of contains (and the atom a work item or an imported fact's items stand for),
   and monotonicity of reachability in the constraint system. *)
From Coq Require Import List Bool.
From NM Require Import Engine EngineSpec.
Import ListNotations.

Lemma controlled_iff t : controlled t = true <-> exists k, t_ctrl t = Some k.
Proof. unfold controlled. destruct (t_ctrl t); split; eauto; try discriminate. intros [k H]; discriminate. Qed.

Lemma controlled_false t : controlled t = false <-> t_ctrl t = None.
Proof. unfold controlled. destruct (t_ctrl t); split; auto; discriminate. Qed.

Lemma In_atoms_of_fact a (f : fact) :
  In a (atoms_of_fact f) <->
  (exists s e, In (s, Det e) f /\ a = if eval_expl e then ASrc s else ASnk s) \/
  (exists s i o x t, In (s, Undet i o) f /\ (In (x, t) o /\ a = AEdge s x t \/ In (x, t) i /\ a = AEdge x s t)).
Proof.
  unfold atoms_of_fact. rewrite in_flat_map. split.
  - intros [[s [e|i o]] [Hin Ha]]; cbn in Ha.
    + left. exists s, e. split; auto. destruct (eval_expl e); destruct Ha as [<-|[]]; auto.
    + right. apply in_app_or in Ha.
      destruct Ha as [Ha|Ha]; apply in_map_iff in Ha; destruct Ha as [[x t] [<- Hx]]; exists s, i, o, x, t; auto.
  - intros [[s [e [Hin ->]]]|[s [i [o [x [t [Hin H]]]]]]].
    + exists (s, Det e). split; auto. cbn. destruct (eval_expl e); left; reflexivity.
    + exists (s, Undet i o). split; auto. cbn. apply in_or_app.
      destruct H as [[Hx ->]|[Hx ->]]; [left|right]; apply in_map_iff; exists (x, t); auto.
Qed.

Lemma In_atoms_of_annots a an :
  In a (atoms_of_annots an) <-> exists s b, In (s, b) an /\ a = if b then ASrc s else ASnk s.
Proof.
  unfold atoms_of_annots. rewrite in_map_iff. split.
  - intros [[s b] [<- H]]. eauto.
  - intros [s [b [H ->]]]. exists (s, b). auto.
Qed.

Lemma In_base_csys_of a fs an ts :
  In a (base (csys_of fs an ts)) <->
  (exists f, In f fs /\ In a (atoms_of_fact f)) \/ In a (atoms_of_annots an) \/
  (exists t, In t ts /\ t_ctrl t = None /\ In a (atoms_of_trigger t)).
Proof.
  cbn. rewrite !in_app_iff, !in_flat_map. apply or_iff_compat_l, or_iff_compat_l.
  split; intros [t [Ht Ha]]; exists t.
  - apply filter_In in Ht. rewrite negb_true_iff, controlled_false in Ht. tauto.
  - split; [|tauto]. apply filter_In. now rewrite negb_true_iff, controlled_false.
Qed.

Lemma In_ctld_csys_of k a fs an ts :
  In (k, a) (ctld (csys_of fs an ts)) <-> exists t, In t ts /\ t_ctrl t = Some k /\ In a (atoms_of_trigger t).
Proof.
  cbn. rewrite in_flat_map. split; intros [t [Ht H]]; exists t; split; auto.
  - destruct (t_ctrl t) as [k'|]; [|destruct H]. apply in_map_iff in H. destruct H as [a' [E Ha]]. now inversion E; subst.
  - destruct H as [-> Ha]. apply in_map_iff. eauto.
Qed.

Lemma csys_of_app_ts_base fs an t1 t2 a :
  In a (base (csys_of fs an (t1 ++ t2))) <->
  In a (base (csys_of fs an t1)) \/ exists t, In t t2 /\ t_ctrl t = None /\ In a (atoms_of_trigger t).
Proof.
  rewrite !In_base_csys_of. split.
  - intros [H|[H|[t [Ht H]]]]; auto. apply in_app_or in Ht. destruct Ht; [left; right; right|right]; eauto.
  - intros [[H|[H|[t [Ht H]]]]|[t [Ht H]]]; auto; right; right; exists t; (split; [apply in_or_app; auto|exact H]).
Qed.

Lemma csys_of_app_ts_ctld fs an t1 t2 ka :
  In ka (ctld (csys_of fs an (t1 ++ t2))) <-> In ka (ctld (csys_of fs an t1)) \/ In ka (ctld (csys_of fs an t2)).
Proof. unfold csys_of; cbn. rewrite flat_map_app, in_app_iff. tauto. Qed.

(* the atom that an item of an imported fact or of an annotation stands for *)
Definition atom_of_item (it : item) : option atom :=
  match it with
  | ISite s e => Some (if eval_expl e then ASrc s else ASnk s)
  | IImpl p c t => Some (AEdge p c t)
  | ITrig _ => None
  end.

Lemma fact_items_atoms f : map atom_of_item (fact_items f) = map Some (atoms_of_fact f).
Proof.
  unfold fact_items, atoms_of_fact. induction f as [|[s [e|i o]] f IH]; cbn; [reflexivity| |].
  - rewrite IH. now destruct (eval_expl e).
  - now rewrite !map_app, !map_map, IH.
Qed.

Lemma annot_map_atoms (an : list (site * bool)) :
  map atom_of_item (map (fun sb => ISite (fst sb) (EAnnot (snd sb) (fst sb))) an) = map Some (atoms_of_annots an).
Proof. unfold atoms_of_annots. rewrite !map_map. apply map_ext. now intros [s b]. Qed.

Lemma sink_atom_inv t a : In a (atoms_of_trigger t) ->
  match a with ASnk _ | ADirect _ => t_cons t = KAlways /\ t_prod t <> KNever | _ => True end.
Proof.
  unfold atoms_of_trigger, atom_of_kinds.
  destruct (t_prod t), (t_cons t); cbn; intros H; try contradiction; destruct H as [<-|[]]; auto; split; auto; discriminate.
Qed.

Lemma act_src_nilr C s : act C (ASrc s) -> nilr C s.
Proof. intros [H|[k [H1 H2]]]; [now apply nr_src | eapply nr_csrc; eauto]. Qed.
Lemma act_edge_nilr C p c t : act C (AEdge p c t) -> nilr C p -> nilr C c.
Proof. intros [H|[k [H1 H2]]] Hp; [eapply nr_edge; eauto | eapply nr_cedge; eauto]. Qed.

Section Mono.
  Variables C C' : csys.
  Hypothesis Hb : forall a, In a (base C) -> In a (base C').
  Hypothesis Hk : forall ka, In ka (ctld C) -> In ka (ctld C').

  Lemma nilr_mono s : nilr C s -> nilr C' s.
  Proof. induction 1; eauto using nilr. Qed.
  Lemma act_mono a : act C a -> act C' a.
  Proof. intros [H|[k [H1 H2]]]; [left; auto | right; exists k; split; auto; now apply nilr_mono]. Qed.
  Lemma nonr_mono s : nonr C s -> nonr C' s.
  Proof. induction 1; eauto using nonr, act_mono. Qed.
  Lemma has_flow_mono : has_flow C -> has_flow C'.
  Proof.
    intros [[t H]|[s [H1 H2]]]; [left; exists t; now apply act_mono|].
    right. exists s. split; [now apply nilr_mono | now apply nonr_mono].
  Qed.
End Mono.

(* nilr by induction on the atoms that derive it, an unconditional and a guarded atom taken together: the guarded one
   comes with the induction hypothesis of its controlling site *)
Lemma nilr_act_ind C (P : site -> Prop) :
  (forall s, In (ASrc s) (base C) \/ (exists k, In (k, ASrc s) (ctld C) /\ P k) -> P s) ->
  (forall p c t, In (AEdge p c t) (base C) \/ (exists k, In (k, AEdge p c t) (ctld C) /\ P k) -> P p -> P c) ->
  forall s, nilr C s -> P s.
Proof. intros Hs He. induction 1; [apply Hs | apply Hs | eapply He | eapply He]; eauto. Qed.
