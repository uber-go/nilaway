(* Whether a conflict is reported and, when none is, the verdicts do not depend on the order in which facts, annotations
   and triggers are observed. *)
From Coq Require Import List Permutation.
From NM Require Import Engine EngineSpec.
From NP Require Import ListFacts SpecFacts EngineStep EngineMain.
Import ListNotations.

(* the specification only depends on which constraints are present *)
Definition csys_equiv (C C' : csys) : Prop :=
  (forall a, In a (base C) <-> In a (base C')) /\ (forall ka, In ka (ctld C) <-> In ka (ctld C')).

Lemma csys_equiv_sym C C' : csys_equiv C C' -> csys_equiv C' C.
Proof. intros [H1 H2]. split; intros; symmetry; auto. Qed.
Lemma csys_equiv_refl C : csys_equiv C C.
Proof. split; reflexivity. Qed.

Lemma csys_equiv_incl C C' : csys_equiv C C' ->
  (forall a, In a (base C) -> In a (base C')) /\ (forall ka, In ka (ctld C) -> In ka (ctld C')).
Proof. intros [Hb Hk]. split; intros x; [apply Hb | apply Hk]. Qed.

Lemma csys_of_ext fs fs' an an' ts ts' :
  (forall x, In x fs <-> In x fs') -> (forall x, In x an <-> In x an') -> (forall x, In x ts <-> In x ts') ->
  csys_equiv (csys_of fs an ts) (csys_of fs' an' ts').
Proof.
  intros Hf Ha Ht. split.
  - intros a. rewrite !In_base_csys_of, !In_atoms_of_annots.
    setoid_rewrite Hf. setoid_rewrite Ha. setoid_rewrite Ht. reflexivity.
  - intros [k a]. rewrite !In_ctld_csys_of. setoid_rewrite Ht. reflexivity.
Qed.

Lemma pkg_csys_perm facts facts' annots annots' ts ts' :
  Permutation facts facts' -> Permutation annots annots' -> Permutation ts ts' ->
  csys_equiv (pkg_csys facts annots ts) (pkg_csys facts' annots' ts').
Proof. intros Pf Pa Pt. apply csys_of_ext; intros x; [now rewrite Pf | now rewrite Pa | now rewrite Pt]. Qed.

Lemma csys_equiv_spec C C' : csys_equiv C C' ->
  (has_flow C <-> has_flow C') /\ forall s, (nilr C s <-> nilr C' s) /\ (nonr C s <-> nonr C' s).
Proof.
  intros H. destruct (csys_equiv_incl _ _ H) as [b k], (csys_equiv_incl _ _ (csys_equiv_sym _ _ H)) as [b' k'].
  split; [|intros s; split]; split; eauto using has_flow_mono, nilr_mono, nonr_mono.
Qed.

Lemma dv_agree C C' st st' s : Inv C st [] -> Inv C' st' [] -> ~ has_flow C -> ~ has_flow C' ->
  (nilr C s <-> nilr C' s) -> (nonr C s <-> nonr C' s) -> dv st s = dv st' s.
Proof.
  intros I I' NF NF' Hn Hq.
  destruct (Correct_verdicts _ _ I NF s) as [T N]. destruct (Correct_verdicts _ _ I' NF' s) as [T' N'].
  apply option_bool_ext; [now rewrite T, T' | now rewrite N, N'].
Qed.

Lemma Correct_agree C C' st st' : csys_equiv C C' -> Inv C st [] -> Inv C' st' [] ->
  (conflicts st <> [] <-> conflicts st' <> []) /\ (conflicts st = [] -> forall s, dv st s = dv st' s).
Proof.
  intros HE I I'. destruct (csys_equiv_spec _ _ HE) as [FF R].
  pose proof (Correct_iff_flow _ _ I) as F. pose proof (Correct_iff_flow _ _ I') as F'.
  split; [now rewrite F, F'|]. intros Hc s.
  assert (NF : ~ has_flow C) by (rewrite <- F; congruence).
  apply dv_agree with C C'; auto; [now rewrite <- FF | apply R | apply R].
Qed.

Theorem engine_order_independent facts facts' annots annots' ts ts' st st' :
  Permutation facts facts' -> Permutation annots annots' -> Permutation ts ts' ->
  pkg_run facts annots ts st -> pkg_run facts' annots' ts' st' ->
  (conflicts st <> [] <-> conflicts st' <> []) /\
  (conflicts st = [] -> forall s, dv st s = dv st' s).
Proof.
  intros Pf Pa Pt R R'. eapply Correct_agree; [apply pkg_csys_perm; eauto | |]; now apply pkg_Inv.
Qed.
