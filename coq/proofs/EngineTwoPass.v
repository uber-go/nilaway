(* ObservePackage observes a package's triggers in two batches (all but the error-return dependent ones, then those).
   With the table of controlled triggers accumulating over the batches, the two-batch run is as good as observing all
   triggers at once: a conflict is reported iff the whole trigger set has a flow, and the verdicts are the reachable
   sets.  With the table replaced by the second batch's (the behaviour before the repair of finding F28) this is false. *)
From Coq Require Import List.
From NM Require Import Engine EngineSpec.
From NP Require Import EngineBasics EngineStep EngineSound EngineMain EngineOrder.
Import ListNotations.

Section TwoPass.
  Variables (facts : list (nat * fact)) (annots : list (site * bool)) (ts1 ts2 : list trigger).
  Let C1 := pkg_csys facts annots ts1.
  Let C := pkg_csys facts annots (ts1 ++ ts2).

  Definition pkg_run2 (st3 : state) : Prop :=
    exists st2, pkg_run facts annots ts1 st2 /\
      Run (fst (build_pkg_more_work st2 ts2)) (snd (build_pkg_more_work st2 ts2)) st3.

  Theorem pkg2_Inv st3 : pkg_run2 st3 -> Inv C st3 [].
  Proof.
    intros [st2 [R12 R3]]. apply (Inv_run _ _ _ _ R3), Inv_more_work.
    - now apply pkg_Inv.
    - now apply pkg_run_ctl in R12.
  Qed.

  Theorem two_pass_conflict_iff_flow st3 : pkg_run2 st3 -> (conflicts st3 <> [] <-> has_flow C).
  Proof. intros H. apply Correct_iff_flow, pkg2_Inv, H. Qed.

  Theorem two_pass_sound st3 : pkg_run2 st3 -> forall c, In c (conflicts st3) -> conflict_ok C c.
  Proof. intros H. apply Correct_sound, pkg2_Inv, H. Qed.

  Theorem two_pass_verdicts st3 : pkg_run2 st3 -> ~ has_flow C ->
    forall s, (dv st3 s = Some true <-> nilr C s) /\ (dv st3 s = Some false <-> nonr C s).
  Proof. intros H. apply Correct_verdicts, pkg2_Inv, H. Qed.

  Theorem two_pass_equals_one_pass st st3 :
    pkg_run facts annots (ts1 ++ ts2) st -> pkg_run2 st3 ->
    (conflicts st <> [] <-> conflicts st3 <> []) /\ (conflicts st3 = [] -> forall s, dv st s = dv st3 s).
  Proof.
    intros R1 R2.
    destruct (Correct_agree C C st3 st (csys_equiv_refl C) (pkg2_Inv _ R2) (pkg_Inv _ _ _ _ R1)) as [Hc Hv].
    split; [now symmetry | intros; symmetry; auto].
  Qed.
End TwoPass.

Lemma observe_package2_run fuel st1 ts1 ts2 st3 :
  observe_package2 fuel st1 ts1 ts2 = Some st3 ->
  exists st2, Run (fst (build_pkg_work st1 ts1)) (snd (build_pkg_work st1 ts1)) st2 /\
              Run (fst (build_pkg_more_work st2 ts2)) (snd (build_pkg_more_work st2 ts2)) st3.
Proof.
  unfold observe_package2, build_pkg.
  destruct (build_pkg_work st1 ts1) as [st1' w] eqn:E. cbn [fst snd].
  destruct (run fuel st1' w) as [st2|] eqn:R; [|discriminate].
  destruct (build_pkg_more_work st2 ts2) as [st2' w2] eqn:E2. intros H.
  exists st2. rewrite E2. cbn [fst snd]. split; eapply run_Run; eauto.
Qed.

Definition mk_t2 id p c k := {| t_id := id; t_prod := p; t_cons := c; t_ctrl := k |}.
(* The behaviour before the repair (finding F28) loses a flow.
   batch 1: nil -> site 1 guarded by site 3; site 1 is dereferenced.  batch 2: nil -> site 3. *)
Definition f28_ts1 : list trigger := [mk_t2 10 KAlways (KCond 1) (Some 3); mk_t2 11 (KCond 1) KAlways None].
Definition f28_ts2 : list trigger := [mk_t2 20 KAlways (KCond 3) None].

Lemma f28_refutes_reset :
  has_flow (pkg_csys [] [] (f28_ts1 ++ f28_ts2)) /\
  (exists st, observe_package2_reset 100 init_state f28_ts1 f28_ts2 = Some st /\ conflicts st = []) /\
  (exists st, observe_package2 100 init_state f28_ts1 f28_ts2 = Some st /\ conflicts st <> []).
Proof.
  split; [|split].
  - right. exists 1. split.
    + apply nr_csrc with 3; [cbn; auto|]. apply nr_src. cbn. auto.
    + apply nn_snk. left. cbn. auto.
  - eexists. split; [vm_compute; reflexivity|reflexivity].
  - eexists. split; [vm_compute; reflexivity|discriminate].
Qed.
