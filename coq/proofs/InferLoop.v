(* The work list of the contract inference (model M10) ends in a post-fixpoint: whenever `loop` returns IDone s, `stable s`
   holds -- for every function whose control-flow graph is well-formed (wf_cfg: entry block without predecessors, no block
   with the same predecessor twice).  With proofs/InferSound.v this removes the validation step from the soundness
   theorem: `infer F fuel = IInferred` alone implies the contract, for well-formed functions.

   Invariant of the loop (state s, queue q):
     I1  block 0 is queued or seen;
     I2  block 0 has no tables;
     I3  for every seen p and every successor c of p: c is queued, or c is seen and every table of p pushed over every
         edge p -> c lands on a table of c (SE). *)
From Coq Require Import List Bool PeanoNat.
From NM Require Import Infer.
From NP Require Import ListFacts InferSound.
Import ListNotations.

Lemma aget_astore {A} (m : list (nat * A)) k v k' :
  aget (astore m k v) k' = if Nat.eqb k k' then Some v else aget m k'.
Proof.
  induction m as [|[k0 v0] m IH]; simpl.
  - destruct (Nat.eqb k k'); reflexivity.
  - destruct (Nat.eqb_spec k0 k) as [->|N]; simpl.
    + destruct (Nat.eqb k k'); reflexivity.
    + rewrite IH. destruct (Nat.eqb_spec k0 k') as [->|N'].
      * destruct (Nat.eqb_spec k k'); [congruence|reflexivity].
      * reflexivity.
Qed.

Lemma aget_in {A} (m : list (nat * A)) k v : aget m k = Some v -> In (k, v) m.
Proof.
  induction m as [|[k0 v0] m IH]; simpl; [discriminate|].
  destruct (Nat.eqb_spec k0 k) as [->|N]; [intros [= ->]; now left|auto].
Qed.

Section Fn.
  Variable F : ifn.
  Hypothesis Hcfg : wf_cfg F = true.

  Lemma tadd_spec s t : let '(s', a) := tadd s t in
    In t s' /\ incl s s' /\ (a = false -> s' = s).
  Proof.
    unfold tadd. destruct (existsb (table_eqb t) s) eqn:E.
    - split; [now apply table_in|split; [apply incl_refl|reflexivity]].
    - split; [apply in_or_app; right; now left|split; [apply incl_appl, incl_refl|discriminate]].
  Qed.

  (* the inner fold of the loop: adding a list of tables, remembering whether anything was new *)
  Definition add_tables (acc : list table * bool) (l : list table) : list table * bool :=
    fold_left (fun (acc2 : list table * bool) t => let '(l, a) := tadd (fst acc2) t in (l, snd acc2 || a)) l acc.

  Lemma add_tables_spec l : forall acc,
    incl l (fst (add_tables acc l)) /\
    incl (fst acc) (fst (add_tables acc l)) /\
    (snd (add_tables acc l) = false -> fst (add_tables acc l) = fst acc /\ snd acc = false).
  Proof.
    unfold add_tables. induction l as [|t l IH]; intros acc; simpl.
    - split; [intros t []|split; [apply incl_refl|auto]].
    - pose proof (tadd_spec (fst acc) t) as T. destruct (tadd (fst acc) t) as [s' a].
      destruct T as (T1 & T2 & T3).
      destruct (IH (s', snd acc || a)) as (I1 & I2 & I3). cbn [fst snd] in *.
      split; [|split].
      + intros u [<-|I]; auto.
      + intros u H. auto.
      + intros Z. destruct (I3 Z) as [E O]. apply orb_false_iff in O. destruct O as [O1 O2].
        split; [rewrite E; auto|exact O1].
  Qed.

  Definition add_preds (acc : list table * bool) (m : list (nat * list table)) : list table * bool :=
    fold_left (fun (acc : list table * bool) (pt : nat * list table) => add_tables acc (snd pt)) m acc.

  Lemma add_preds_flat m : forall acc, add_preds acc m = add_tables acc (flat_map snd m).
  Proof.
    unfold add_preds, add_tables. induction m as [|pt m IH]; intros acc; simpl; [reflexivity|].
    now rewrite fold_left_app, IH.
  Qed.

  Lemma add_preds_spec m acc :
    (forall p l, In (p, l) m -> incl l (fst (add_preds acc m))) /\
    incl (fst acc) (fst (add_preds acc m)) /\
    (snd (add_preds acc m) = false -> fst (add_preds acc m) = fst acc /\ snd acc = false).
  Proof.
    rewrite add_preds_flat. destruct (add_tables_spec (flat_map snd m) acc) as (A1 & A2 & A3).
    split; [|split; [exact A2|exact A3]].
    intros p l I t It. apply A1, in_flat_map. exists (p, l). split; [exact I|exact It].
  Qed.

  Definition tot (s : ist) (p : nat) : list table := match set_of s p with [] => [[]] | l => l end.

  Lemma tot_eq s p : tables_or_top (i_sets s) p = tot s p.
  Proof. unfold tables_or_top, tot, set_of. destruct (aget (i_sets s) p) as [[|x l]|]; reflexivity. Qed.

  Lemma covered_cov s c t : covered s c t = true <-> set_of s c = [] \/ In t (set_of s c).
  Proof.
    unfold covered. rewrite <- table_in. destruct (set_of s c) as [|x l]; [tauto|].
    split; [auto|intros [Z|H]; [discriminate|exact H]].
  Qed.

  Definition SE (s : ist) (p c idx : nat) : Prop :=
    forall t, In t (tot s p) -> forall l, learn F c p t = Some l -> covered s c (enter F c idx (add_all t l)) = true.

  Lemma stable_edge_SE s p c idx : stable_edge F s p c idx = true <-> SE s p c idx.
  Proof.
    unfold stable_edge, SE. rewrite forallb_forall, tot_eq. split.
    - intros H t It l L. specialize (H t It). now rewrite L in H.
    - intros H t It. destruct (learn F c p t) eqn:L; eauto.
  Qed.

  Lemma SE_ext s s' p c idx : set_of s p = set_of s' p -> set_of s c = set_of s' c -> SE s p c idx -> SE s' p c idx.
  Proof. unfold SE, tot, covered. intros -> ->. auto. Qed.

  Definition fp_step (b idx p : nat) (acc : list table) (t : table) : list table :=
    match learn F b p t with None => acc | Some l => fst (tadd acc (enter F b idx (add_all t l))) end.

  Lemma fp_step_spec b idx p acc t :
    incl acc (fp_step b idx p acc t) /\
    forall l, learn F b p t = Some l -> In (enter F b idx (add_all t l)) (fp_step b idx p acc t).
  Proof.
    unfold fp_step. destruct (learn F b p t) as [l0|]; [|split; [apply incl_refl|discriminate]].
    pose proof (tadd_spec acc (enter F b idx (add_all t l0))) as T.
    destruct (tadd acc (enter F b idx (add_all t l0))) as [s' a]. destruct T as (T1 & T2 & _).
    split; [exact T2|intros l [= <-]; exact T1].
  Qed.

  Lemma from_pred_has s b idx p t l :
    In t (tot s p) -> learn F b p t = Some l -> In (enter F b idx (add_all t l)) (from_pred F s b idx p).
  Proof.
    intros I L. change (from_pred F s b idx p) with (fold_left (fp_step b idx p) (tot s p) []).
    apply in_split in I. destruct I as (l1 & l2 & ->). rewrite fold_left_app. cbn [fold_left].
    apply (fold_left_invariant (fun a => In _ a)).
    - exact (proj2 (fp_step_spec b idx p _ t) l L).
    - intros a x _. apply fp_step_spec.
  Qed.

  Definition up_step (s : ist) (b : nat) (mi : list (nat * list table) * nat) (pred : nat) :=
    let '(m, idx) := mi in ((if is_seen s pred then astore m pred (from_pred F s b idx pred) else m), S idx).

  Lemma up_keep s b ps : forall m i q, ~ In q ps -> aget (fst (fold_left (up_step s b) ps (m, i))) q = aget m q.
  Proof.
    induction ps as [|x ps IH]; intros m i q N; simpl; auto.
    rewrite IH by (simpl in N; tauto).
    destruct (is_seen s x); auto. rewrite aget_astore.
    destruct (Nat.eqb_spec x q); [subst; simpl in N; tauto|reflexivity].
  Qed.

  Lemma up_has s b ps : forall m i k p, nodupb ps = true -> nth_error ps k = Some p -> is_seen s p = true ->
    aget (fst (fold_left (up_step s b) ps (m, i))) p = Some (from_pred F s b (i + k) p).
  Proof.
    induction ps as [|x ps IH]; intros m i k p N Nth Sp; [destruct k; discriminate|].
    simpl in N. apply andb_prop in N; destruct N as [Nx N].
    destruct k as [|k]; simpl in Nth.
    - injection Nth as ->. simpl. rewrite Sp, up_keep; [now rewrite aget_astore, Nat.eqb_refl, Nat.add_0_r|].
      now apply existsb_eqb_notin, negb_true_iff.
    - simpl. now rewrite (IH _ (S i) k p N Nth Sp), Nat.add_succ_r.
  Qed.

  Lemma under_preds_eq s b : under_preds F s b = fst (fold_left (up_step s b) (ib_preds (block F b)) ([], 0)).
  Proof. reflexivity. Qed.

  Lemma preds_nodup b : nodupb (ib_preds (block F b)) = true.
  Proof.
    unfold wf_cfg in Hcfg. apply andb_prop in Hcfg. destruct Hcfg as [_ H].
    unfold block. apply (forallb_nth_default (fun b => nodupb (ib_preds b))); [exact H|reflexivity].
  Qed.

  Lemma preds0 : ib_preds (block F 0) = [].
  Proof.
    unfold wf_cfg in Hcfg. apply andb_prop in Hcfg. destruct Hcfg as [H _].
    destruct (ib_preds (block F 0)); [reflexivity|discriminate].
  Qed.

  Lemma add_preds_pushed s b acc newset upd p idx t l :
    add_preds acc (under_preds F s b) = (newset, upd) ->
    is_seen s p = true -> nth_error (ib_preds (block F b)) idx = Some p ->
    In t (tot s p) -> learn F b p t = Some l -> In (enter F b idx (add_all t l)) newset.
  Proof.
    intros AP Sp Nth It L. destruct (add_preds_spec (under_preds F s b) acc) as (A1 & _ & _).
    rewrite AP in A1. apply A1 with p (from_pred F s b idx p); [|now apply from_pred_has].
    apply aget_in. rewrite under_preds_eq. exact (up_has s b _ [] 0 idx p (preds_nodup b) Nth Sp).
  Qed.

  Definition I3 (s : ist) (q : list nat) : Prop :=
    forall p c, is_seen s p = true -> In c (ib_succs (block F p)) ->
      In c q \/ (is_seen s c = true /\ forall idx, nth_error (ib_preds (block F c)) idx = Some p -> SE s p c idx).

  Definition LI (s : ist) (q : list nat) : Prop :=
    (In 0 q \/ is_seen s 0 = true) /\ set_of s 0 = [] /\ I3 s q.

  (* marking b as seen, as the loop does it *)
  Lemma seen_add s l b x :
    is_seen {| i_sets := l; i_seen := if is_seen s b then i_seen s else b :: i_seen s |} x = Nat.eqb x b || is_seen s x.
  Proof.
    destruct (is_seen s b) eqn:Sb; [|reflexivity].
    destruct (Nat.eqb_spec x b) as [->|]; [exact Sb|reflexivity].
  Qed.

  Definition s0_of (s : ist) (b : nat) : ist :=
    match aget (i_sets s) b with Some _ => s | None => {| i_sets := astore (i_sets s) b []; i_seen := i_seen s |} end.

  Lemma s0_set s b x : set_of (s0_of s b) x = set_of s x.
  Proof.
    unfold s0_of. destruct (aget (i_sets s) b) eqn:G; auto.
    unfold set_of; simpl. rewrite aget_astore. destruct (Nat.eqb_spec b x); [subst; now rewrite G|reflexivity].
  Qed.

  Lemma s0_seen s b x : is_seen (s0_of s b) x = is_seen s x.
  Proof. unfold s0_of. destruct (aget (i_sets s) b); reflexivity. Qed.

  Lemma from_pred_ext s s' b idx p : set_of s p = set_of s' p -> from_pred F s b idx p = from_pred F s' b idx p.
  Proof. unfold from_pred. now intros ->. Qed.

  Lemma loop_S fuel s b rest : loop F (S fuel) s (b :: rest) =
    let s0 := s0_of s b in
    let '(newset, upd) := add_preds (set_of s0 b, false) (under_preds F s0 b) in
    let s1 := {| i_sets := astore (i_sets s0) b newset; i_seen := i_seen s0 |} in
    if is_seen s1 b && negb upd then loop F fuel s1 rest
    else
      let s2 := {| i_sets := i_sets s1; i_seen := if is_seen s1 b then i_seen s1 else b :: i_seen s1 |} in
      if Nat.leb max_tables (length newset) then IGaveUp
      else loop F fuel s2 (rest ++ ib_succs (block F b)).
  Proof. reflexivity. Qed.

  (* one iteration keeps the invariant: b gets the tables newset and is marked seen; its successors are queued (extra)
     unless b was seen before and nothing was added *)
  Lemma LI_step s b rest newset upd seen extra :
    LI s (b :: rest) ->
    add_preds (set_of (s0_of s b) b, false) (under_preds F (s0_of s b) b) = (newset, upd) ->
    (forall x, existsb (Nat.eqb x) seen = Nat.eqb x b || is_seen s x) ->
    incl (ib_succs (block F b)) extra \/ (is_seen s b = true /\ upd = false) ->
    LI {| i_sets := astore (i_sets (s0_of s b)) b newset; i_seen := seen |} (rest ++ extra).
  Proof.
    intros (Q0 & Z0 & Q3) AP Seen' Ex. set (s' := {| i_seen := seen |}).
    change (forall x, is_seen s' x = Nat.eqb x b || is_seen s x) in Seen'.
    assert (Set' : forall x, set_of s' x = if Nat.eqb b x then newset else set_of s x).
    { intros x. unfold set_of at 1. simpl. rewrite aget_astore. destruct (Nat.eqb b x); [reflexivity|apply s0_set]. }
    destruct (add_preds_spec (under_preds F (s0_of s b) b) (set_of (s0_of s b) b, false)) as (_ & _ & A3).
    rewrite AP in A3. cbn [fst snd] in A3. rewrite s0_set in A3.
    assert (Into : forall p idx, is_seen s p = true -> nth_error (ib_preds (block F b)) idx = Some p ->
                     set_of s' p = set_of s p -> SE s' p b idx).
    { intros p idx Sp Nth Ep t It l L. apply covered_cov. right. rewrite Set', Nat.eqb_refl.
      apply (add_preds_pushed _ _ _ _ _ p idx t l AP); [now rewrite s0_seen|exact Nth| |exact L].
      unfold tot in *. now rewrite s0_set, <- Ep. }
    split; [|split].
    - rewrite Seen'. destruct Q0 as [[<-|I]|S0].
      + right. now rewrite Nat.eqb_refl.
      + left. apply in_or_app; now left.
      + right. rewrite S0. apply orb_true_r.
    - rewrite Set'. destruct (Nat.eqb_spec b 0) as [->|]; [|exact Z0].
      unfold add_preds in AP. rewrite under_preds_eq, preds0 in AP. injection AP as <- _. now rewrite s0_set.
    - intros p c Sp Ic. rewrite Seen' in Sp.
      (* c is queued with the successors of b, or p was seen before and has the tables it had *)
      assert (C : In c extra \/ (is_seen s p = true /\ set_of s' p = set_of s p)).
      { rewrite Set'. destruct (Nat.eqb_spec p b) as [->|N].
        - rewrite Nat.eqb_refl. destruct Ex as [Ex|[Sb U]]; [left; auto|right; split; [exact Sb|exact (proj1 (A3 U))]].
        - right. split; [exact Sp|]. destruct (Nat.eqb_spec b p); [congruence|reflexivity]. }
      destruct C as [I|[Sp0 Ep]]; [left; apply in_or_app; now right|].
      destruct (Nat.eq_dec c b) as [->|Ncb].
      + right. split; [rewrite Seen', Nat.eqb_refl; reflexivity|]. intros idx Nth. now apply Into.
      + destruct (Q3 p c Sp0 Ic) as [[E|I]|[Sc St]]; [congruence|left; apply in_or_app; now left|].
        right. split; [rewrite Seen', Sc; apply orb_true_r|]. intros idx Nth.
        apply SE_ext with s; [now symmetry| |exact (St idx Nth)].
        rewrite Set'. destruct (Nat.eqb_spec b c); [congruence|reflexivity].
  Qed.

  Lemma loop_inv : forall fuel s q s', LI s q -> loop F fuel s q = IDone s' -> LI s' [].
  Proof.
    induction fuel as [|fuel IH]; intros s [|b rest] s' Inv L; try (injection L as <-; exact Inv); [discriminate|].
    rewrite loop_S in L. cbv zeta in L.
    destruct (add_preds _ _) as [newset upd] eqn:AP.
    destruct (is_seen _ b && negb upd) eqn:Br.
    - apply andb_prop in Br. destruct Br as [Sb U]. apply negb_true_iff in U.
      change (is_seen (s0_of s b) b = true) in Sb. rewrite s0_seen in Sb.
      apply (IH _ _ s') with (2 := L). rewrite <- (app_nil_r rest).
      apply (LI_step s b rest newset upd _ _ Inv AP); [|right; split; [exact Sb|exact U]].
      intros x. cbn [i_seen]. fold (is_seen (s0_of s b) x). rewrite s0_seen.
      destruct (Nat.eqb_spec x b) as [->|]; [exact Sb|reflexivity].
    - destruct (Nat.leb max_tables (length newset)); [discriminate L|].
      apply (IH _ _ s') with (2 := L). apply (LI_step s b rest newset upd _ _ Inv AP); [|left; apply incl_refl].
      intros x. rewrite <- (s0_seen s b). exact (seen_add (s0_of s b) [] b x).
  Qed.

  Lemma LI_stable s : LI s [] -> stable F s = true.
  Proof.
    intros (Q0 & Z0 & Q3). unfold stable. destruct Q0 as [[]|S0]. rewrite S0, Z0. simpl.
    apply forallb_forall. intros p Ip. apply forallb_forall. intros c Ic.
    destruct (Q3 p c (proj2 (is_seen_in s p) Ip) Ic) as [[]|[Sc St]]. rewrite Sc. simpl.
    apply forallb_idx_spec. intros idx x Nth. simpl.
    destruct (Nat.eqb_spec x p) as [->|]; auto. apply stable_edge_SE. auto.
  Qed.

  Theorem loop_stable fuel s : loop F fuel {| i_sets := []; i_seen := [] |} [0] = IDone s -> stable F s = true.
  Proof.
    intros L. apply LI_stable. apply (loop_inv fuel _ _ _) with (2 := L).
    split; [left; now left|split; [reflexivity|]]. intros p c Sp. discriminate.
  Qed.
End Fn.

(* the soundness theorem without validation: what inferContracts returns is true *)
Theorem infer_sound F fuel : wf_fn F = true -> wf_cfg F = true -> infer F fuel = IInferred ->
  forall b e r, reach F b e -> ib_ret (block F b) = Some r -> e (if_param F) = false -> e r = false.
Proof.
  intros W C H. apply (infer_checked_is_sound F fuel).
  unfold infer_checked. rewrite W. simpl. unfold infer in H.
  destruct (derive F []); auto.
  destruct (loop F fuel _ _) as [| |s] eqn:L; try discriminate.
  rewrite (loop_stable F C fuel s L). simpl. destruct (derive F (i_sets s)); [reflexivity|discriminate].
Qed.
