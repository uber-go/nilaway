(* C18 -- Results do not depend on where the module lives or where the tool starts (model M4b). Partial: the
   theorems are about names (site identities, fact positions, printed names); drivers that give every package its
   own working directory (go vet, finding F12) are outside the model and covered by whole-tool runs only. *)
From Coq Require Import List.
From NM Require Import Paths.
From NP Require Import PathsProofs.
Import ListNotations.

(* moving the module (root r -> r') while keeping the relative position of the working directory (c) leaves every
   relativised file name -- hence every site identity and every position stored in facts -- unchanged *)
Theorem C18_relocate : forall r r' c p, rel (r ++ c) (r ++ p) = rel (r' ++ c) (r' ++ p).
Proof. exact rel_relocate. Qed.
Print Assumptions C18_relocate.

Theorem C18_from_root : forall r p, rel r (r ++ p) = map Seg p.
Proof. exact rel_from_root. Qed.
Print Assumptions C18_from_root.

Theorem C18_from_ancestor : forall a m p, rel a (a ++ m ++ p) = map Seg (m ++ p).
Proof. exact rel_from_ancestor. Qed.
Print Assumptions C18_from_ancestor.

(* changing only the working directory renames files injectively: two names are equal under one working
   directory iff they are equal under any other, so every comparison of site identities has the same outcome *)
Theorem C18_cwd_independent : forall c1 c2 t1 t2, rel c1 t1 = rel c1 t2 <-> rel c2 t1 = rel c2 t2.
Proof. exact rel_cwd_independent. Qed.
Print Assumptions C18_cwd_independent.

Theorem C18_rel_injective : forall cwd t1 t2, rel cwd t1 = rel cwd t2 -> t1 = t2.
Proof. exact rel_injective. Qed.
Print Assumptions C18_rel_injective.

(* the truncated names printed in messages depend only on the trailing segments *)
Theorem C18_printed_names : forall (r r' p : list nat) occ, occ + 1 <= length p ->
  portion_after_sep (r ++ p) occ = portion_after_sep (r' ++ p) occ.
Proof. exact (@portion_relocate nat). Qed.
Print Assumptions C18_printed_names.

(* the key by which diagnostics are ordered before grouping (tokenhelper.AbsFromCwd of the cwd-relative name, finding F107)
   is the absolute name of the file: the same from every working directory; and the order of two files of one module does
   not depend on where the module lives *)
Theorem C18_sort_key_round_trip : forall cwd t, join_clean cwd (rel cwd t) = t.
Proof. exact abs_of_rel. Qed.
Print Assumptions C18_sort_key_round_trip.

Theorem C18_sort_key_cwd_independent : forall c1 c2 t,
  abs_from_cwd c1 (rel_to_cwd c1 (Abs t)) = abs_from_cwd c2 (rel_to_cwd c2 (Abs t)).
Proof. exact sort_key_cwd_independent. Qed.
Print Assumptions C18_sort_key_cwd_independent.

Theorem C18_order_relocates : forall r p q, lex_leb (r ++ p) (r ++ q) = lex_leb p q.
Proof. exact lex_relocate. Qed.
Print Assumptions C18_order_relocates.
