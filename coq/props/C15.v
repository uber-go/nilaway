(* C15 -- Distinct sites never alias and a site has one identity everywhere (model M3). *)
From Coq Require Import List.
From NM Require Import Keys.
From NP Require Import KeysProofs.
Import ListNotations.

(* injectivity in the declaring package's own view.  Hypotheses (local_view_ok, wf_key): the objects are the package's own and
   distinct objects have distinct positions; keys are built consistently with the program (parameter names and
   field objects are functions of (function, index[, field name])) *)
Theorem C15_injective : forall sig recv_name fld_of v objs k1 d1 k2 d2,
  local_view_ok v objs -> In (key_obj k1) objs -> In (key_obj k2) objs ->
  wf_key sig recv_name fld_of k1 -> wf_key sig recv_name fld_of k2 ->
  site_of v k1 d1 = site_of v k2 d2 -> k1 = k2 /\ d1 = d2.
Proof. exact site_injective_local. Qed.
Print Assumptions C15_injective.

(* keys with the same Object() and the same printed representation are the same key *)
Theorem C15_repr_injective : forall sig recv_name fld_of k1 k2,
  wf_key sig recv_name fld_of k1 -> wf_key sig recv_name fld_of k2 ->
  key_obj k1 = key_obj k2 -> key_repr k1 = key_repr k2 -> k1 = k2.
Proof. exact repr_injective. Qed.
Print Assumptions C15_repr_injective.

(* stability: a dependency's site mentioned in the dependency's facts gets the same identity while analysing any
   importer, however imprecisely the importer knows the dependency's source positions *)
Theorem C15_stable : forall home imp k d,
  o_pkg (key_obj k) = v_pkg home -> o_pkg (key_obj k) <> v_pkg imp -> published home imp (key_obj k) ->
  site_of imp k d = site_of home k d.
Proof. exact site_stable. Qed.
Print Assumptions C15_stable.

(* what happens otherwise: the importer's own belief about the position is used *)
Theorem C15_unpublished : forall imp k d,
  o_pkg (key_obj k) <> v_pkg imp ->
  (forall pa, o_path (key_obj k) = Some pa -> lookup_up (v_upstream imp) (o_pkg (key_obj k)) pa = None) ->
  s_pos (site_of imp k d) = v_pos imp (key_obj k).
Proof. exact site_unpublished. Qed.
Print Assumptions C15_unpublished.

Example C15_same_name_methods :
  key_repr (KRet mA 0) = key_repr (KRet mB 0) /\ site_of ex_view (KRet mA 0) false <> site_of ex_view (KRet mB 0) false.
Proof. exact same_name_methods_differ. Qed.
