(* C14 -- Every diagnostic points at a real source line and carries a coherent flow (model M2b). Partial: the
   file system and the drivers are outside any model; those halves are decided by the whole-tool oracle. *)
From Coq Require Import List ZArith.
From NM Require Import Diag Report.
From NG Require Import Consts.
From NP Require Import ReportProofs.
Import ListNotations.

(* the reported position of an over-constraint conflict is the position of the last step of its non-nil chain,
   and that last step is the last node of the printed flow *)
Theorem C14_report_pos : forall id nil_chain nonnil_chain r,
  nonnil_chain <> [] -> last nonnil_chain r = r ->
  c_pos (over_conflict id nil_chain nonnil_chain) = rs_pos r /\
  last (c_nonnil (over_conflict id nil_chain nonnil_chain)) (rs_node r) = rs_node r.
Proof. intros. split; [now apply over_conflict_pos | now apply over_conflict_last_step]. Qed.
Print Assumptions C14_report_pos.

(* the flow lists at least one step; no step of either chain is dropped *)
Theorem C14_flow_nonempty : forall id nil_chain nonnil_chain,
  nonnil_chain <> [] -> c_nonnil (over_conflict id nil_chain nonnil_chain) <> [] /\
  length (c_nonnil (over_conflict id nil_chain nonnil_chain)) = length nonnil_chain /\
  length (c_nil (over_conflict id nil_chain nonnil_chain)) = length nil_chain.
Proof. exact over_conflict_flow. Qed.
Print Assumptions C14_flow_nonempty.

Theorem C14_single : forall id p n src, c_pos (single_conflict id p n src) = p /\ c_nonnil (single_conflict id p n src) = [n].
Proof. exact single_conflict_flow. Qed.
Print Assumptions C14_single.

(* a position in a file the file set does not (really) contain still becomes a valid position on the same
   line, for EVERY line number and whatever fake file already exists (over the regenerated constant and guards) *)
Theorem C14_to_pos_total : forall existing line, (1 <= line)%Z -> to_pos existing line = Some line.
Proof. exact to_pos_total. Qed.
Print Assumptions C14_to_pos_total.

(* the pinned code (fixed 64K-line fake files, never regrown) could panic: finding F16, repaired *)
Theorem C14_to_pos_refuted_before_fix : to_pos_fake fake_file_max_lines false false None 70000 = None.
Proof. exact to_pos_unguarded_refuted. Qed.
