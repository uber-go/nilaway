(* C01 -- Clean means panic-free: every reachable nil dereference is reported.
   Property theorems only (proved in proofs/FlowProofs.v, proofs/WholeProofs.v).  Objects:
     prog                        a closed program of the core fragment (model M6, MiniGo): pointer locals, parameters,
                                 results, package-level variables, nil, allocations, loops, branches on opaque /
                                 nil-comparison / dereferencing conditions with ! && ||, direct calls (methods,
                                 switches, nested call arguments are spellings chosen by the correspondence's printer)
     run_program prog fuel oracle   its execution under the opaque answers `oracle` (out of fuel is not a panic)
     analyze_program .. prog = Some r   the triggers NilAway's function analysis emits for it (model M7), with
                                 r_gsafe: no package-level value tracked across a call that may re-assign it is used
                                 r_clocal: functions with a contract are only called from their own package
     pkg_run [] [] ts st / conflicts st   the inference engine (model M1) on those triggers and what it reports *)
From Coq Require Import List.
From NM Require Import Engine EngineSpec MiniGo Flow Guard.
From NP Require Import EngineMain FlowProofs WholeProofs.
Import ListNotations.

(* no reported conflict => no execution dereferences nil, whatever the opaque conditions answer *)
Theorem C01_clean_means_panic_free : forall prog afuel ctr pk r st,
  analyze_program afuel ctr pk prog = Some r -> r_gsafe r = true -> r_clocal r = true -> r_nodel r = true ->
  wf_program prog = true -> ctr_arity ctr 0 (p_funcs prog) = true -> impls_plain prog ctr = true ->
  (forall g fd, ctr g = true -> nth_error (p_funcs prog) g = Some fd -> contract_true prog fd) ->
  pkg_run [] [] (all_triggers r) st -> conflicts st = [] ->
  forall fuel oracle, panic_of (run_program prog fuel oracle) = None.
Proof. exact whole_sound. Qed.
Print Assumptions C01_clean_means_panic_free.

(* if some execution dereferences nil, at least one diagnostic is reported *)
Theorem C01_panic_is_reported : forall prog afuel ctr pk r st fuel oracle d,
  analyze_program afuel ctr pk prog = Some r -> r_gsafe r = true -> r_clocal r = true -> r_nodel r = true ->
  wf_program prog = true -> ctr_arity ctr 0 (p_funcs prog) = true -> impls_plain prog ctr = true ->
  (forall g fd, ctr g = true -> nth_error (p_funcs prog) g = Some fd -> contract_true prog fd) ->
  pkg_run [] [] (all_triggers r) st ->
  panic_of (run_program prog fuel oracle) = Some d -> conflicts st <> [].
Proof. exact whole_reported. Qed.
Print Assumptions C01_panic_is_reported.

(* the same at the level of the constraint system, independent of the engine's algorithm *)
Theorem C01_no_flow_means_panic_free : forall prog afuel ctr pk r,
  analyze_program afuel ctr pk prog = Some r -> r_gsafe r = true -> r_clocal r = true -> r_nodel r = true ->
  wf_program prog = true -> ctr_arity ctr 0 (p_funcs prog) = true -> impls_plain prog ctr = true ->
  (forall g fd, ctr g = true -> nth_error (p_funcs prog) g = Some fd -> contract_true prog fd) ->
  ~ has_flow (csys_of [] [] (all_triggers r)) ->
  forall fuel oracle, panic_of (run_program prog fuel oracle) = None.
Proof. exact flow_sound. Qed.
Print Assumptions C01_no_flow_means_panic_free.

(* "a diagnostic is reported at exactly that dereference": every sink of a reported flow is a dereference whose
   producers can fire; dereferences protected by a nil check have none (C02_protected_triggers_never), so when
   only dereference d is unprotected every reported flow ends at d *)
Theorem C01_lone_dereference : forall ts d,
  (forall t, In t ts -> t_cons t = KAlways -> t_prod t <> KNever -> t_id t = d) ->
  forall t a, In t ts -> In a (atoms_of_trigger t) ->
  match a with ASnk _ | ADirect _ => t_id t = d | _ => True end.
Proof. exact lone_sink. Qed.
Print Assumptions C01_lone_dereference.

(* the side conditions are needed: F2 (a callee re-assigns a tracked package-level variable) and F4 (a contracted
   callee of another package) are clean programs that panic *)
Theorem C01_refuted_without_call_safety :
  exists prog r st fuel oracle,
    analyze_program 8 no_ctr one_pkg prog = Some r /\ r_gsafe r = false /\ r_clocal r = true /\
    wf_program prog = true /\
    pkg_run [] [] (all_triggers r) st /\ conflicts st = [] /\
    panic_of (run_program prog fuel oracle) = Some 1.
Proof. exact refuted_without_call_safety. Qed.
Print Assumptions C01_refuted_without_call_safety.

Theorem C01_refuted_without_contract_locality :
  exists prog r st fuel oracle,
    analyze_program 8 ctr1 two_pkgs prog = Some r /\ r_gsafe r = true /\ r_clocal r = false /\
    wf_program prog = true /\ ctr_arity ctr1 0 (p_funcs prog) = true /\
    pkg_run [] [] (all_triggers r) st /\ conflicts st = [] /\
    panic_of (run_program prog fuel oracle) = Some 1.
Proof. exact refuted_without_contract_locality. Qed.
Print Assumptions C01_refuted_without_contract_locality.

(* non-vacuity: a program with calls, guards, a loop and a package-level variable meets every premise *)
Example C01_example :
  exists r res,
    analyze_program 8 no_ctr one_pkg ex_ok = Some r /\ r_gsafe r = true /\ r_clocal r = true /\ r_nodel r = true /\
    wf_program ex_ok = true /\ ctr_arity no_ctr 0 (p_funcs ex_ok) = true /\
    analyze_pkg all_exported 200 [] [] (all_triggers r) = Finished res /\ r_conflicts res = [] /\
    guarded ex_ok = true.
Proof. exact ex_ok_premises. Qed.
