(* C04 -- Same input, same output: diagnostics and facts are byte-deterministic.
   Theorems over the pipeline model M8 + engine model M1, with every source of nondeterminism as an argument.
   What is proved: the collector and the engine's inputs are order-free, and the engine and the diagnostic model
   are functions.  What is checked rather than proved: the classification of every `range` over a Go map found by
   the regenerated, go/types-based inventory (proofs/OrderSites.v) -- a new map range breaks the obligation. *)
From Coq Require Import List Permutation.
From NM Require Import Engine Pipeline.
From NG Require Import Inventory.
From NP Require Import PipelineProofs OrderSites.
Import ListNotations.

(* the order in which the driver hands over dependency facts and the iteration order of the annotation maps do not
   influence anything the engine produces: conflicts (with explanations, in order), the inferred map (in insertion
   order) and the exported fact are EQUAL *)
Theorem C04_engine_input_order_free : forall exported fuel facts facts' annots annots' ts,
  Permutation facts facts' -> NoDup (map fst facts) ->
  Permutation annots annots' -> NoDup (map fst annots) ->
  engine_result exported fuel facts annots ts = engine_result exported fuel facts' annots' ts.
Proof. exact engine_input_order_free. Qed.
Print Assumptions C04_engine_input_order_free.

(* sorting by a key with distinct values erases the arrival order (nolint ranges, facts by package path,
   annotated sites by position, callers by index) *)
Theorem C04_sort_erases_order : forall (A : Type) (key : A -> nat) (l l' : list A),
  Permutation l l' -> NoDup (map key l) -> sort_by key l = sort_by key l'.
Proof. exact @sort_by_order_free. Qed.
Print Assumptions C04_sort_erases_order.

(* every goroutine completion order gives the trigger list of a sequential analysis *)
Theorem C04_collector_order_free : forall (T : Type) n (analyse : nat -> list T) arrivals,
  Permutation (map fst arrivals) (seq 0 n) ->
  (forall i ts, In (i, ts) arrivals -> ts = analyse i) ->
  collect T n arrivals = sequential T n analyse.
Proof. exact collect_any_order. Qed.
Print Assumptions C04_collector_order_free.

(* every map range of the source tree is classified (sorted-after / set-like / static table / out of model) *)
Theorem C04_map_ranges_classified : forallb (classified range_classes) map_ranges_gen = true.
Proof. exact map_ranges_classified. Qed.
Print Assumptions C04_map_ranges_classified.

(* no clock, timer, deadline, CPU count, environment variable or random source feeds the analysis: every such use in the
   source tree (regenerated inventory) is presentation-only or confined to internal-error messages *)
Theorem C04_ambient_inputs_classified : forallb (classified ambient_classes) ambient_gen = true.
Proof. exact ambient_classified. Qed.
Print Assumptions C04_ambient_inputs_classified.
