(* C16 -- Parallel per-function analysis equals sequential analysis (partial: data races are a property of the Go
   memory model that no Gallina model of the collector can exhibit; they are searched for with the race detector). *)
From Coq Require Import List Permutation.
From NM Require Import Pipeline.
From NG Require Import Inventory.
From NP Require Import PipelineProofs OrderSites.
Import ListNotations.

(* for EVERY completion order of the concurrently running analyses the collector of function.run yields exactly the
   result of analysing the functions one at a time, provided each analysis is a function of its index
   (`analyse`: the per-function analysis reads only package data that nobody writes -- see the inventories below) *)
Theorem C16_collect : forall (T : Type) n (analyse : nat -> list T) arrivals,
  Permutation (map fst arrivals) (seq 0 n) ->
  (forall i ts, In (i, ts) arrivals -> ts = analyse i) ->
  collect T n arrivals = sequential T n analyse.
Proof. exact collect_any_order. Qed.
Print Assumptions C16_collect.

(* the goroutines of the source tree are exactly the four known ones (two per concurrent analyzer) *)
Theorem C16_go_sites : go_sites_gen = expected_go_sites.
Proof. exact go_sites_expected. Qed.
Print Assumptions C16_go_sites.

(* every package-level variable is an analyzer descriptor or is only read after initialisation *)
Theorem C16_pkg_vars : forallb (classified var_classes) pkg_vars_gen = true.
Proof. exact pkg_vars_classified. Qed.
Print Assumptions C16_pkg_vars.

Example C16_example : collect nat 3 [(2, [5]); (0, [1; 2]); (1, [])] = sequential nat 3 (fun i => match i with 0 => [1; 2] | 1 => [] | _ => [5] end).
Proof. reflexivity. Qed.
