(* C06 -- Exported facts preserve every flow between externally visible sites.
   Property theorems only.  Objects (model M1): pkg_run_up facts annots ts up st: a package run whose upstream
   snapshot (what the dependencies already published, as observed) is `up` and whose final state is st;
   export exported up (mp st): the published increment (None = the Go code would panic, Some None = no fact). *)
From Coq Require Import List Bool.
From NM Require Import Engine EngineSpec.
From NP Require Import EngineStep EngineMain ExportProofs ModularComplete.
Import ListNotations.

(* every verdict on a site of an exported symbol is published, or was already published by a dependency *)
Theorem C06_verdicts_kept : forall exported facts annots ts up st fo s e,
  pkg_run_up facts annots ts up st -> export exported up (mp st) = Some fo ->
  exported s = true -> lookup (mp st) s = Some (Det e) ->
  (exists f e', fo = Some f /\ lookup f s = Some (Det e') /\ eval_expl e' = eval_expl e) \/
  (exists e', lookup up s = Some (Det e') /\ eval_expl e' = eval_expl e).
Proof. exact export_verdicts_kept. Qed.
Print Assumptions C06_verdicts_kept.

(* the increment omits what the dependencies already published: no verdict for a site they determined, and no
   edge they already listed *)
Theorem C06_increment : forall exported up st f,
  export exported up (mp st) = Some (Some f) -> forall s d, In (s, d) f ->
  match lookup up s with
  | Some (Det _) => False
  | Some (Undet oi oo) =>
      match d with
      | Det _ => True
      | Undet di do => (forall x t, In (x, t) di -> lookup oi x = None) /\ (forall x t, In (x, t) do -> lookup oo x = None)
      end
  | None => True
  end.
Proof. exact export_increment. Qed.
Print Assumptions C06_increment.

(* publishing never fails: the "new value does not supersede old value" panic is unreachable *)
Theorem C06_export_total : forall exported facts annots ts up st,
  pkg_run_up facts annots ts up st -> export exported up (mp st) <> None.
Proof. exact export_no_panic. Qed.
Print Assumptions C06_export_total.

(* every exported site the package knows about is among the chosen sites *)
Theorem C06_exported_chosen : forall exported m s,
  In s (map fst m) -> exported s = true -> In s (choose_sites_to_export exported m).
Proof. exact choose_exported. Qed.
Print Assumptions C06_exported_chosen.

(* the chosen set is exactly the exported sites plus the convex closure between them: an undetermined site of an
   unexported symbol is published iff it lies on a path of such sites that starts at a successor of an exported site
   of the map and ends at a predecessor of one (FR: reachable forward from an exported site through such sites, BR:
   reaches one backward) -- for every map, no bound on its size *)
Theorem C06_chosen_is_convex_closure : forall exported m s,
  ExportConvex.inner exported m s = true ->
  (In s (choose_sites_to_export exported m) <-> ExportConvex.FR exported m s /\ ExportConvex.BR exported m s).
Proof. exact ExportConvex.choose_convex. Qed.
Print Assumptions C06_chosen_is_convex_closure.

(* non-vacuity: exported sites 0 and 9; 0 -> 1 -> 2 -> 9 is a path of unexported undetermined sites, 3 hangs off 1
   without reaching an exported site, 4 leads into 2 without being reachable from one: 1 and 2 are chosen, 3 and 4
   are not *)
Example C06_convex_example :
  let exported := fun s => Nat.eqb s 0 || Nat.eqb s 9 in
  let m := [(0, Undet [] [(1, 0)]); (1, Undet [(0, 0)] [(2, 0); (3, 0)]); (2, Undet [(1, 0); (4, 0)] [(9, 0)]);
            (3, Undet [(1, 0)] []); (4, Undet [] [(2, 0)]); (9, Undet [(2, 0)] [])] in
  (forall s, In s [1; 2] -> In s (choose_sites_to_export exported m)) /\
  (forall s, In s [3; 4] -> ~ In s (choose_sites_to_export exported m)).
Proof.
  cbn zeta. split; intros s H; vm_compute in H |- *; intuition (subst; try discriminate; auto).
Qed.

(* ---- the importer's view ----
   An importer that combines the dependencies' facts with this increment (CEx) reaches the same conflicts as one given
   the package's full internal constraint graph (CWh), and the same verdicts on every site it can see -- provided no
   controlled trigger of the package is left pending (finding F15; C03_refuted_pending_controlled shows the condition
   cannot be dropped).  D is everything else the importer knows; it mentions this package's sites only through exported
   symbols. *)
Theorem C06_importer_finds_every_flow : forall exported facts annots ts up st fo D,
  pkg_run_up facts annots ts up st -> export exported up (mp st) = Some fo -> conflicts st = [] ->
  (forall s, In s (sites_of D) -> vis exported st s) ->
  (forall k a, In (k, a) (ctld (pkg_csys facts annots ts)) -> dv st k <> None) ->
  has_flow (CWh facts annots ts D) -> has_flow (CEx facts fo D).
Proof. exact modular_complete. Qed.
Print Assumptions C06_importer_finds_every_flow.

Theorem C06_importer_verdicts_nilable : forall exported facts annots ts up st fo D,
  pkg_run_up facts annots ts up st -> export exported up (mp st) = Some fo -> conflicts st = [] ->
  (forall s, In s (sites_of D) -> vis exported st s) ->
  (forall k a, In (k, a) (ctld (pkg_csys facts annots ts)) -> dv st k <> None) ->
  forall s, vis exported st s -> nilr (CWh facts annots ts D) s -> has_flow (CEx facts fo D) \/ nilr (CEx facts fo D) s.
Proof. exact visible_nilable. Qed.
Print Assumptions C06_importer_verdicts_nilable.

Theorem C06_importer_verdicts_nonnil : forall exported facts annots ts up st fo D,
  pkg_run_up facts annots ts up st -> export exported up (mp st) = Some fo -> conflicts st = [] ->
  (forall s, In s (sites_of D) -> vis exported st s) ->
  (forall k a, In (k, a) (ctld (pkg_csys facts annots ts)) -> dv st k <> None) ->
  forall s, vis exported st s -> nonr (CWh facts annots ts D) s -> has_flow (CEx facts fo D) \/ nonr (CEx facts fo D) s.
Proof. exact visible_nonnil. Qed.
Print Assumptions C06_importer_verdicts_nonnil.
