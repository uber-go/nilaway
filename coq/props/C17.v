(* C17 -- Driver-shared inputs are treated as read-only (partial: aliasing in the real heap is only sampled by the
   structural hash of the correspondence run; the theorem is about the modelled primitives). *)
From Coq Require Import List.
From NM Require Import CfgHeap.
From NG Require Import Inventory.
From NP Require Import CfgHeapProofs OrderSites.
Import ListNotations.

(* Preprocessor.CFG = copyGraph, then any sequence of the rewriting writes (set Nodes / Succs / Live of a block of the
   graph at hand, append a fresh block): every cell that existed before the call -- in particular every block of the
   graph shared with other analyzers -- has the same content afterwards *)
Theorem C17_frame : forall h g ops, heap_ok h ->
  forall a, a < h_next h -> hlookup (cells (fst (preprocess h g ops))) a = hlookup (cells h) a.
Proof. exact preprocess_frame. Qed.
Print Assumptions C17_frame.

(* every assignment through a value of a driver-shared type (go/ast, go/token, go/types, go/cfg, go/ssa,
   go/analysis) found by the regenerated, go/types-based inventory is one of: a write to the copied graph, a write
   to an object the function allocated itself, or a write to a local struct copy *)
Theorem C17_writes_classified : forallb (classified write_classes) shared_writes_gen = true.
Proof. exact shared_writes_classified. Qed.
Print Assumptions C17_writes_classified.

Example C17_example :
  heap_ok ex_heap /\
  let '(h', g') := preprocess ex_heap [0; 1] [OSetNodes 0 [5]; OSetSuccs 1 [0]; OAppendBlock [] [] false; OSetLive 2 true] in
  hlookup (cells h') 0 = hlookup (cells ex_heap) 0 /\ hlookup (cells h') 1 = hlookup (cells ex_heap) 1 /\ g' = [2; 3; 4].
Proof. exact ex_preprocess. Qed.
