(* C02 -- Nil-checked dereferences are never reported.
   Property theorems only (proved in proofs/GuardProofs.v, proofs/WholeProofs.v).  Objects:
     stmt_prot st P / guarded prog   (model/Guard.v) the set P of variables that passed a nil check -- or hold a
                                 fresh allocation or a copy of such a variable -- with no assignment since, threaded
                                 through the structured program; conditions are trees of opaque tests, nil tests,
                                 dereferencing tests, ! && || (all spellings of a guard canonicalise to these: the
                                 correspondence prints them as x != nil, nil != x, !(x == nil), early returns,
                                 switch x { case nil: }, De Morgan forms, checks hoisted above loops)
     analyze / analyze_program    the triggers NilAway's function analysis emits (model M7) *)
From Coq Require Import List.
From NM Require Import Engine EngineSpec Flow Guard.
From NP Require Import EngineMain GuardProofs WholeProofs.
Import ListNotations.

(* a dereference of a protected variable only yields triggers whose producer never fires *)
Theorem C02_protected_triggers_never : forall ng ctr sp f fuel st e r P oP,
  Pinv P e -> analyze ng ctr sp f fuel st e = Some r -> stmt_prot st P = (oP, true) ->
  safe (a_trig r) /\ forall e', a_env r = Some e' -> exists P', oP = Some P' /\ Pinv P' e'.
Proof. exact analyze_prot. Qed.
Print Assumptions C02_protected_triggers_never.

(* a program whose dereferences are all protected has no flow from a nil source to a dereference ... *)
Theorem C02_guarded_no_flow : forall prog afuel ctr pk r,
  guarded prog = true -> analyze_program afuel ctr pk prog = Some r -> ~ has_flow (csys_of [] [] (all_triggers r)).
Proof. exact guarded_no_flow. Qed.
Print Assumptions C02_guarded_no_flow.

(* ... and yields zero diagnostics *)
Theorem C02_guarded_clean : forall prog afuel ctr pk r st,
  guarded prog = true -> analyze_program afuel ctr pk prog = Some r ->
  pkg_run [] [] (all_triggers r) st -> conflicts st = [].
Proof. exact guarded_clean. Qed.
Print Assumptions C02_guarded_clean.

(* a variable a statement does not assign stays protected across it (guards hoisted above loops) *)
Theorem C02_guard_survives : forall st P P' ok x,
  stmt_prot st P = (Some P', ok) -> pmem x P = true -> ~ In x (assigned st) -> pmem x P' = true.
Proof. exact prot_frame. Qed.
Print Assumptions C02_guard_survives.

(* non-vacuity: the example program of C01 is guarded (conjunction, negated disjunction with a dereference in the
   condition, loop condition) *)
Example C02_example : guarded ex_ok = true.
Proof. reflexivity. Qed.
