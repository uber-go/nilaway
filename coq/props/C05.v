(* C05 -- A conflict is reported iff a nil source reaches a non-nil sink, in any order.
   Property theorems only (proved in proofs/Engine*.v).  Objects:
     pkg_run facts annots ts st   the engine (model M1, transcription of inference/engine.go) observed the
                                  imported facts, then the annotations, then the package's triggers, ending in st
     pkg_csys facts annots ts     the same input read as a constraint system (sources, sinks, edges, guarded atoms)
     nilr / nonr / has_flow       reachability over the ACTIVE constraints, defined independently of the engine *)
From Coq Require Import List Permutation.
From NM Require Import Engine EngineSpec.
From NP Require Import EngineStep EngineSound EngineMain EngineOrder EngineTerm EngineTwoPass.
Import ListNotations.

(* at least one conflict is reported if and only if some definite nil source reaches some definite
   non-nil requirement through the (active) constraint graph *)
Theorem C05_conflict_iff_flow : forall facts annots ts st,
  pkg_run facts annots ts st -> (conflicts st <> [] <-> has_flow (pkg_csys facts annots ts)).
Proof. exact engine_conflict_iff_flow. Qed.
Print Assumptions C05_conflict_iff_flow.

(* every reported conflict's explanation is a real path of observed, active constraints from a source
   to a sink: both explanations are chains of edges of the system ending at the same site *)
Theorem C05_explanations_are_paths : forall facts annots ts st,
  pkg_run facts annots ts st ->
  forall c, In c (conflicts st) -> conflict_ok (pkg_csys facts annots ts) c.
Proof. exact engine_sound. Qed.
Print Assumptions C05_explanations_are_paths.

(* when no such path exists, each site ends nilable exactly if a source reaches it and non-nil exactly
   if it reaches a sink *)
Theorem C05_verdicts : forall facts annots ts st,
  pkg_run facts annots ts st -> ~ has_flow (pkg_csys facts annots ts) ->
  forall s, (dv st s = Some true <-> nilr (pkg_csys facts annots ts) s) /\
            (dv st s = Some false <-> nonr (pkg_csys facts annots ts) s).
Proof. exact engine_verdicts. Qed.
Print Assumptions C05_verdicts.

(* none of this depends on the order in which facts, annotations and triggers are observed *)
Theorem C05_order_independent : forall facts facts' annots annots' ts ts' st st',
  Permutation facts facts' -> Permutation annots annots' -> Permutation ts ts' ->
  pkg_run facts annots ts st -> pkg_run facts' annots' ts' st' ->
  (conflicts st <> [] <-> conflicts st' <> []) /\
  (conflicts st = [] -> forall s, dv st s = dv st' s).
Proof. exact engine_order_independent. Qed.
Print Assumptions C05_order_independent.

(* the executable function that the correspondence suite runs against the real engine is such a run *)
Theorem C05_executable_is_a_run : forall exported fuel facts annots ts r,
  analyze_pkg exported fuel facts annots ts = Finished r \/ analyze_pkg exported fuel facts annots ts = Panicked r ->
  exists st, pkg_run facts annots ts st /\ r_conflicts r = conflicts st /\ r_map r = mp st.
Proof. exact analyze_pkg_run. Qed.
Print Assumptions C05_executable_is_a_run.

(* the engine terminates on every well-formed input (no controlled trigger feeds a controlling site) *)
Theorem C05_terminates : forall facts annots ts,
  wf_triggers ts -> exists st, pkg_run facts annots ts st.
Proof. exact engine_terminates. Qed.
Print Assumptions C05_terminates.

(* non-vacuity: a concrete input with an imported edge, an annotation, a controlled trigger and a
   planted source-to-sink path runs to completion and reports the flow *)
Example C05_example : exists st, pkg_run ex_facts ex_annots ex_ts st /\ conflicts st <> [] /\ wf_triggers ex_ts.
Proof. exact ex_runs. Qed.

(* ObservePackage observes a package's triggers in TWO batches (everything but the error-return dependent triggers, then
   those); pkg_run2 is such a run, with the table of controlled triggers accumulating over the batches.  The statement
   of C05 holds for it with respect to the whole trigger set, and it is as good as a single pass. *)
Theorem C05_two_batches_conflict_iff_flow : forall facts annots ts1 ts2 st,
  pkg_run2 facts annots ts1 ts2 st -> (conflicts st <> [] <-> has_flow (pkg_csys facts annots (ts1 ++ ts2))).
Proof. exact two_pass_conflict_iff_flow. Qed.
Print Assumptions C05_two_batches_conflict_iff_flow.

Theorem C05_two_batches_equal_one_pass : forall facts annots ts1 ts2 st st',
  pkg_run facts annots (ts1 ++ ts2) st -> pkg_run2 facts annots ts1 ts2 st' ->
  (conflicts st <> [] <-> conflicts st' <> []) /\ (conflicts st' = [] -> forall s, dv st s = dv st' s).
Proof. exact two_pass_equals_one_pass. Qed.
Print Assumptions C05_two_batches_equal_one_pass.

(* ... which is false when the second batch REPLACES the table (the code before the repair of finding F28): batch 1 has
   nil -> site 1 guarded by site 3 and a dereference of site 1, batch 2 makes site 3 nilable: the trigger set has a flow,
   the run with the table reset reports nothing, the run with the accumulated table reports it *)
Theorem C05_refuted_table_reset :
  has_flow (pkg_csys [] [] (f28_ts1 ++ f28_ts2)) /\
  (exists st, observe_package2_reset 100 init_state f28_ts1 f28_ts2 = Some st /\ conflicts st = []) /\
  (exists st, observe_package2 100 init_state f28_ts1 f28_ts2 = Some st /\ conflicts st <> []).
Proof. exact f28_refutes_reset. Qed.
Print Assumptions C05_refuted_table_reset.
