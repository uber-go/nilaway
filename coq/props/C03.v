(* C03 -- Modular analysis finds the same nil flows as whole-program analysis (engine level, model M1).
   Proved, for every constraint graph and every split of it into a publishing package and an importer:
   soundness (facts never invent a flow), completeness (facts never lose a flow between sites the importer can see)
   and equality of verdicts on those sites -- the last two under the side condition that no controlled trigger of the
   publishing package is left pending, whose necessity is finding F15 (C03_refuted_pending_controlled). *)
From Coq Require Import List.
From NM Require Import Engine EngineSpec.
From NP Require Import EngineStep EngineMain ExportProofs ModularProofs ModularComplete.
Import ListNotations.

(* every atom of a published fact is entailed by the publishing package's own constraint graph *)
Theorem C03_fact_is_sound_summary : forall exported facts annots ts up st f,
  pkg_run_up facts annots ts up st -> export exported up (mp st) = Some (Some f) ->
  forall a, In a (atoms_of_fact f) -> derivable (pkg_csys facts annots ts) a.
Proof. exact exported_fact_derivable. Qed.
Print Assumptions C03_fact_is_sound_summary.

(* a flow found by an importer from the fact (plus anything else it knows: D) is a flow of the whole graph *)
Theorem C03_modular_never_invents : forall exported facts annots ts up st f D,
  pkg_run_up facts annots ts up st -> export exported up (mp st) = Some (Some f) ->
  has_flow (CE (atoms_of_fact f) D) -> has_flow (CW (pkg_csys facts annots ts) D).
Proof. exact modular_sound. Qed.
Print Assumptions C03_modular_never_invents.

(* generic form: any summary made of entailed atoms is sound *)
Theorem C03_summary_sound : forall C1 E D,
  (forall a, In a E -> derivable C1 a) -> has_flow (CE E D) -> has_flow (CW C1 D).
Proof. exact summary_sound. Qed.
Print Assumptions C03_summary_sound.

(* ---- completeness: modular analysis never loses a flow ----
   Package P ran on (facts, annots, ts) without conflict, published fo on top of the upstream snapshot up.
   The importer adds annD / tsD, which mention P's sites only through exported symbols (vis), and is given the facts
   of P's dependencies plus fo.  One engine observing everything reports a conflict iff the importer's engine does. *)
Theorem C03_modular_equals_whole : forall exported facts annots ts up st fo annD tsD n,
  pkg_run_up facts annots ts up st -> export exported up (mp st) = Some fo -> conflicts st = [] ->
  (forall s, In s (sites_of (csys_of [] annD tsD)) -> vis exported st s) ->
  (forall k a, In (k, a) (ctld (pkg_csys facts annots ts)) -> dv st k <> None) ->
  forall stW stI,
  pkg_run facts (annots ++ annD) (ts ++ tsD) stW ->
  pkg_run (facts ++ opt_fact n fo) annD tsD stI ->
  (conflicts stW <> [] <-> conflicts stI <> []).
Proof. exact modular_equals_whole. Qed.
Print Assumptions C03_modular_equals_whole.

(* ... and when there is no conflict, both give every site the importer can see the same verdict *)
Theorem C03_modular_verdicts_equal : forall exported facts annots ts up st fo annD tsD n,
  pkg_run_up facts annots ts up st -> export exported up (mp st) = Some fo -> conflicts st = [] ->
  (forall s, In s (sites_of (csys_of [] annD tsD)) -> vis exported st s) ->
  (forall k a, In (k, a) (ctld (pkg_csys facts annots ts)) -> dv st k <> None) ->
  forall stW stI,
  pkg_run facts (annots ++ annD) (ts ++ tsD) stW ->
  pkg_run (facts ++ opt_fact n fo) annD tsD stI ->
  conflicts stI = [] ->
  forall s, vis exported st s -> dv stW s = dv stI s.
Proof. exact modular_verdicts_equal. Qed.
Print Assumptions C03_modular_verdicts_equal.

(* at the level of constraint systems, for an arbitrary importer-side system D (further facts included) *)
Theorem C03_modular_never_loses : forall exported facts annots ts up st fo D,
  pkg_run_up facts annots ts up st -> export exported up (mp st) = Some fo -> conflicts st = [] ->
  (forall s, In s (sites_of D) -> vis exported st s) ->
  (forall k a, In (k, a) (ctld (pkg_csys facts annots ts)) -> dv st k <> None) ->
  has_flow (CWh facts annots ts D) -> has_flow (CEx facts fo D).
Proof. exact modular_complete. Qed.
Print Assumptions C03_modular_never_loses.

(* non-vacuity: a flow exported -> unexported -> unexported -> exported is found both ways, with every hypothesis met *)
Example C03_modular_example : exists up st fo stW stI,
  pkg_run_up [] [] exA_ts up st /\ export exA_exported up (mp st) = Some fo /\ conflicts st = [] /\
  (forall s, In s (sites_of (csys_of [] [] exA_tsD)) -> vis exA_exported st s) /\
  (forall k a, In (k, a) (ctld (pkg_csys [] [] exA_ts)) -> dv st k <> None) /\
  pkg_run [] ([] ++ []) (exA_ts ++ exA_tsD) stW /\ pkg_run ([] ++ opt_fact 0 fo) [] exA_tsD stI /\
  conflicts stW <> [] /\ conflicts stI <> [] /\
  (exists f, fo = Some f /\ lookup f 2 <> None /\ lookup f 3 <> None).
Proof. exact exA_holds. Qed.

(* the side condition is necessary (finding F15): with a pending controlled trigger the whole graph has a conflict
   the importer does not find, all other hypotheses holding *)
Theorem C03_refuted_pending_controlled : exists up st fo stW stI,
  pkg_run_up [] [] exB_ts up st /\ export exB_exported up (mp st) = Some fo /\ conflicts st = [] /\
  (forall s, In s (sites_of (csys_of [] [] exB_tsD)) -> vis exB_exported st s) /\
  pkg_run [] ([] ++ []) (exB_ts ++ exB_tsD) stW /\ pkg_run ([] ++ opt_fact 0 fo) [] exB_tsD stI /\
  conflicts stW <> [] /\ conflicts stI = [] /\
  (exists k a, In (k, a) (ctld (pkg_csys [] [] exB_ts)) /\ dv st k = None).
Proof. exact exB_refutes. Qed.
Print Assumptions C03_refuted_pending_controlled.

(* ... and along a CHAIN of any number of packages, each analysed with the facts its predecessors published (all but the last
   conflict-free, the side conditions of the one-step theorem at every link): one engine observing the union of all the
   packages reports a conflict iff the modular run of the LAST package does *)
From NP Require Import ModularChain.
Theorem C03_chain_equals_whole : forall exported facts pkgs stI,
  modular exported facts pkgs stI ->
  forall stW, pkg_run facts (m_ann pkgs) (m_ts pkgs) stW ->
  (conflicts stW <> nil <-> conflicts stI <> nil).
Proof. exact chain_equals_whole. Qed.
Print Assumptions C03_chain_equals_whole.

(* non-vacuity: three packages, no flow inside any of them, one flow through all three *)
Example C03_chain_example : exists stI stW,
  modular exC_exported nil (cons exC_p1 (cons exC_p2 (cons exC_p3 nil))) stI /\
  pkg_run nil (m_ann (cons exC_p1 (cons exC_p2 (cons exC_p3 nil)))) (m_ts (cons exC_p1 (cons exC_p2 (cons exC_p3 nil)))) stW /\
  conflicts stI <> nil /\ conflicts stW <> nil.
Proof. exact exC_chain. Qed.

(* ... and when the last run is conflict-free, both give the same verdict to every site of a set V that is visible (exported,
   or unknown to the package) at every link of the chain *)
Theorem C03_chain_verdicts_equal : forall exported V facts pkgs stI,
  modularV exported V facts pkgs stI ->
  forall stW, pkg_run facts (m_ann pkgs) (m_ts pkgs) stW ->
  conflicts stI = nil ->
  forall s, V s -> dv stW s = dv stI s.
Proof. exact chain_verdicts_equal. Qed.
Print Assumptions C03_chain_verdicts_equal.

(* "Moving functions into a dependency or an importer neither loses nor invents a flow": two partitions of the same program
   into chains of packages (the unions of their annotations and triggers are permutations of each other), each meeting the
   side conditions of the chain theorem, end in modular runs that agree on whether there is a conflict ... *)
From Coq Require Import Permutation.
From NP Require Import EngineTerm.
Theorem C03_moving_functions_keeps_flows : forall exported facts pkgs pkgs' stI stI',
  modular exported facts pkgs stI -> modular exported facts pkgs' stI' ->
  Permutation (m_ann pkgs) (m_ann pkgs') -> Permutation (m_ts pkgs) (m_ts pkgs') ->
  wf_triggers (m_ts pkgs) -> wf_triggers (m_ts pkgs') ->
  (conflicts stI <> nil <-> conflicts stI' <> nil).
Proof. exact chain_repartition. Qed.
Print Assumptions C03_moving_functions_keeps_flows.

(* ... and, when neither has one, on the verdict of every site visible at every link of both *)
Theorem C03_moving_functions_keeps_verdicts : forall exported V facts pkgs pkgs' stI stI',
  modularV exported V facts pkgs stI -> modularV exported V facts pkgs' stI' ->
  Permutation (m_ann pkgs) (m_ann pkgs') -> Permutation (m_ts pkgs) (m_ts pkgs') ->
  wf_triggers (m_ts pkgs) -> wf_triggers (m_ts pkgs') ->
  conflicts stI = nil -> conflicts stI' = nil ->
  forall s, V s -> dv stI s = dv stI' s.
Proof. exact chain_repartition_verdicts. Qed.
Print Assumptions C03_moving_functions_keeps_verdicts.

(* non-vacuity: the three-package chain of C03_chain_example and the two-package chain obtained by moving every function of
   its second package into the first meet every hypothesis, and both end in a conflict *)
Example C03_moving_functions_example :
  (exists stI, modular exC_exported nil (cons exC_p12 (cons exC_p3 nil)) stI /\ conflicts stI <> nil) /\
  Permutation (m_ann (cons exC_p1 (cons exC_p2 (cons exC_p3 nil)))) (m_ann (cons exC_p12 (cons exC_p3 nil))) /\
  Permutation (m_ts (cons exC_p1 (cons exC_p2 (cons exC_p3 nil)))) (m_ts (cons exC_p12 (cons exC_p3 nil))) /\
  wf_triggers (m_ts (cons exC_p1 (cons exC_p2 (cons exC_p3 nil)))) /\ wf_triggers (m_ts (cons exC_p12 (cons exC_p3 nil))).
Proof. split; [exact exC_chain2|exact exC_repartition_hyps]. Qed.
