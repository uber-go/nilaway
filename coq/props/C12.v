(* C12 -- Package and file scope flags select exactly what they say (model M4a, config/config.go). *)
From Coq Require Import List Bool String.
From NM Require Import Scope.
From NP Require Import ScopeProofs.
Import ListNotations.

Theorem C12_prefix : forall s p, has_prefix s p = true <-> exists t, s = p ++ t.
Proof. exact has_prefix_spec. Qed.
Print Assumptions C12_prefix.

(* analysed iff the import path starts with an include prefix and with no exclude prefix *)
Theorem C12_scope_iff : forall inc exc path,
  is_pkg_in_scope inc exc path = true <->
  (exists i, In i inc /\ has_prefix path i = true) /\ (forall e, In e exc -> has_prefix path e = false).
Proof. exact scope_iff. Qed.
Print Assumptions C12_scope_iff.

Theorem C12_exclude_wins : forall inc exc path e,
  In e exc -> has_prefix path e = true -> is_pkg_in_scope inc exc path = false.
Proof. exact exclude_wins. Qed.
Print Assumptions C12_exclude_wins.

(* an empty include list means everything *)
Theorem C12_empty_means_all : forall exc_flag path,
  in_scope_flags [] exc_flag path = negb (existsb (has_prefix path) (excludes_of_flag exc_flag)).
Proof. exact empty_include_means_all. Qed.
Print Assumptions C12_empty_means_all.

(* the prefix lists are exactly the comma-separated pieces of the flag *)
Theorem C12_flag_pieces : forall flag, join_comma (split_comma flag []) = flag.
Proof. exact split_join. Qed.
Print Assumptions C12_flag_pieces.

Theorem C12_file_scope : forall templ excluded present,
  is_file_in_scope templ excluded present = true <-> templ = true \/ (forall e, In e excluded -> ~ In e present).
Proof. exact file_scope_spec. Qed.
Print Assumptions C12_file_scope.

(* over the regenerated inventory of analysis.Analyzer values: every analyzer other than the flag holder, the
   top-level relays and the nolint reader starts its run with `if !conf.IsPkgInScope(pass.Pkg) { return }`, and the
   analyzers publishing inference, contract and affiliation facts are among them *)
From NG Require Import Inventory.
Theorem C12_out_of_scope_guards :
  forallb analyzer_ok analyzers_gen = true /\
  forallb (fun n => existsb (fun a => let '(name, facts, guarded) := a in String.eqb name n && facts && guarded) analyzers_gen)
    ["accumulation/analyzer.go:Analyzer"; "assertion/affiliation/analyzer.go:Analyzer";
     "assertion/function/functioncontracts/analyzer.go:Analyzer"]%string = true.
Proof. exact (conj analyzers_guarded fact_analyzers_guarded). Qed.
Print Assumptions C12_out_of_scope_guards.

(* over the regenerated inventory of loops over the package's files: each loop body starts by consulting
   IsFileInScope (named exceptions: file lookups by name, the experimental v2 collector, grouping, nolint) *)
Theorem C12_file_loops_guarded :
  forallb (fun a : string * bool => snd a || existsb (String.eqb (fst a)) file_loop_exempt) file_loops_gen = true.
Proof. exact file_loops_guarded. Qed.
Print Assumptions C12_file_loops_guarded.
