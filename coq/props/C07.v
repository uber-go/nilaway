(* C07 -- Analysis is total (partial: Coq covers the inference engine; the per-function backward propagation and
   everything else is reached only by the totality sweep over real packages). *)
From Coq Require Import List.
From NM Require Import Engine.
From NP Require Import EngineBasics EngineMain EngineTerm.
Import ListNotations.

(* the engine terminates on every input whose trigger set is well-formed (the consumer site of a controlled trigger
   never controls a trigger: call-site result sites versus call-site parameter sites); the proof is by a
   lexicographic measure (undetermined sites of a finite universe, weighted work stack) *)
Theorem C07_engine_terminates : forall facts annots ts,
  wf_triggers ts -> exists st, pkg_run facts annots ts st.
Proof. exact engine_terminates. Qed.
Print Assumptions C07_engine_terminates.

(* any run of the work-list semantics is reproduced by the fuelled executable for all sufficiently large fuel,
   so the executable model cannot "run out" where the relation terminates *)
Theorem C07_fuel_monotone : forall st work st', Run st work st' ->
  exists fuel, forall f, fuel <= f -> run f st work = Some st'.
Proof. exact Run_run. Qed.
Print Assumptions C07_fuel_monotone.

(* without well-formedness the engine really can recurse forever: two determined-nonnil controllers that each
   control an always-nil trigger into the other re-activate each other on every conflict -- 1000 steps later the
   same two items are still pending *)
Definition loop_ts : list trigger :=
  [ {| t_id := 1; t_prod := KAlways; t_cons := KCond 2; t_ctrl := Some 1 |};
    {| t_id := 2; t_prod := KAlways; t_cons := KCond 1; t_ctrl := Some 2 |} ].
Definition loop_state : state :=
  {| mp := [(1, Det (EAnnot false 1)); (2, Det (EAnnot false 2))]; conflicts := []; ctl := loop_ts |}.
Theorem C07_refuted_without_wf : run 1000 loop_state [ISite 1 (EAnnot true 1)] = None.
Proof. vm_compute. reflexivity. Qed.
