(* C19 -- Rewriting a comparison keeps its meaning.  Property theorems only. *)
From Coq Require Import ZArith List.
From NM Require Import Cmp.
From NG Require Import Tables.
From NP Require Import CmpProofs.
Open Scope Z_scope.

(* the Go switches cover exactly the six comparison operators *)
Theorem C19_total : forall t, converse_gen t <> None /\ inverse_gen t <> None.
Proof. exact tables_total. Qed.
Print Assumptions C19_total.

Theorem C19_converse : forall o a b, eval o a b = eval (conv o) b a.
Proof. exact eval_converse. Qed.
Print Assumptions C19_converse.

Theorem C19_inverse : forall o a b, eval o a b = negb (eval (inv o) a b).
Proof. exact eval_inverse. Qed.
Print Assumptions C19_inverse.

Theorem C19_involutions : (forall o, conv (conv o) = o) /\ (forall o, inv (inv o) = o).
Proof. exact (conj conv_involutive inv_involutive). Qed.
Print Assumptions C19_involutions.

(* the translator understood the shape of the checker list and of the application loop *)
Theorem C19_shape : tables_shape_ok = true /\
  forallb (fun ck => match ck_cls ck with ClsUnknown => false | _ => true end) checkers_gen = true.
Proof. exact (conj shape_ok classes_known). Qed.
Print Assumptions C19_shape.

Theorem C19_branch_attribution : forall binop x y t f s,
  operand_ok x -> operand_ok y ->
  apply binop x y = Some (t, f, s) ->
  (t = true -> eval binop (o_val x) (o_val y) = true -> subject_nonnil s) /\
  (f = true -> eval binop (o_val x) (o_val y) = false -> subject_nonnil s).
Proof. exact branch_attribution. Qed.
Print Assumptions C19_branch_attribution.

Theorem C19_nil_spellings : forall v,
  apply NEQ (ptr v) nil_lit = Some (true, false, ptr v) /\
  apply NEQ nil_lit (ptr v) = Some (true, false, ptr v) /\
  apply EQL (ptr v) nil_lit = Some (false, true, ptr v) /\
  apply EQL nil_lit (ptr v) = Some (false, true, ptr v).
Proof. exact nil_spellings. Qed.
Print Assumptions C19_nil_spellings.

Theorem C19_len_spellings : forall v,
  apply NEQ (len_of v) zero_lit = Some (true, false, len_of v) /\
  apply NEQ zero_lit (len_of v) = Some (true, false, len_of v) /\
  apply EQL (len_of v) zero_lit = Some (false, true, len_of v) /\
  apply EQL zero_lit (len_of v) = Some (false, true, len_of v) /\
  apply GTR (len_of v) zero_lit = Some (true, false, len_of v) /\
  apply LSS zero_lit (len_of v) = Some (true, false, len_of v) /\
  apply LEQ (len_of v) zero_lit = Some (false, true, len_of v) /\
  apply GEQ zero_lit (len_of v) = Some (false, true, len_of v).
Proof. exact len_spellings. Qed.
Print Assumptions C19_len_spellings.

(* AddNilCheck on nested conditions (the prologue's negation case and the matcher that compares a check with a
   boolean constant call AddNilCheck again): the translator recognised both shapes *)
Theorem C19_nested_shape : not_swaps_gen = true /\ (forall o x y, checke (ECmp o (EOp x) (EOp y)) = apply o x y).
Proof. exact (conj not_swaps check_atoms). Qed.
Print Assumptions C19_nested_shape.

Theorem C19_branch_attribution_nested : forall e t f s,
  wf_expr e -> checke e = Some (t, f, s) ->
  (t = true -> ev e = 1 -> subject_nonnil s) /\ (f = true -> ev e = 0 -> subject_nonnil s).
Proof. exact branch_attribution_nested. Qed.
Print Assumptions C19_branch_attribution_nested.

Theorem C19_bool_const_spellings : forall v,
  let c := cmp NEQ (atom (ptr v)) (atom nil_lit) in
  checke (cmp EQL c (EBool true)) = Some (true, false, ptr v) /\
  checke (cmp EQL (EBool true) c) = Some (true, false, ptr v) /\
  checke (cmp NEQ c (EBool false)) = Some (true, false, ptr v) /\
  checke (cmp NEQ (EBool false) c) = Some (true, false, ptr v) /\
  checke (cmp EQL c (EBool false)) = Some (false, true, ptr v) /\
  checke (cmp NEQ (EBool true) c) = Some (false, true, ptr v) /\
  checke (ENot (cmp EQL c (EBool false))) = Some (true, false, ptr v) /\
  checke (cmp EQL (cmp NEQ (ENot c) (EBool true)) (EBool true)) = Some (true, false, ptr v).
Proof. exact bool_const_spellings. Qed.
Print Assumptions C19_bool_const_spellings.

(* ---- nil checks that are operands of a short-circuit VALUE expression (model M14 = the BinaryExpr case of AddComputation
   after the repair of F100, tied to the real tool by checks/shortcircuit_suite.py) ---- *)
From NM Require Import ShortCircuit.
From NP Require Import ShortCircuitProofs.

(* every dereference inside the expression that can panic -- for some nil-ness of the variables and some outcome of the
   opaque operands -- is reported, for every expression all of whose LEFT operands are pure trees of the operator they
   stand under (any depth, any right nesting), whatever its conditions are as long as the conclusions attached to them are
   right (conds_ok) ... *)
Theorem C19_short_circuit_attribution : forall e nilv orc l,
  left_pure e = true -> conds_ok e -> eval nilv orc e = Panic l -> In l (reported e).
Proof. exact short_circuit_sound. Qed.
Print Assumptions C19_short_circuit_attribution.

(* ... and they are right for every condition AddNilCheck recognises through its recursion: comparisons with nil in either
   order, negations, comparisons with boolean constants in either order, nested to any depth -- the conclusions are those
   M5's interpreter of the GENERATED checker list computes (cond_of), so M5 and M14 compose *)
From NP Require Import ShortCircuitCmp.
Theorem C19_nested_conditions_draw_right_conclusions : forall c, cond1_ok (cond_of c).
Proof. exact cond_of_ok. Qed.
Print Assumptions C19_nested_conditions_draw_right_conclusions.

Theorem C19_short_circuit_attribution_nested : forall e nilv orc l,
  left_pure e = true -> nested_conds e -> eval nilv orc e = Panic l -> In l (reported e).
Proof. exact short_circuit_sound_nested. Qed.
Print Assumptions C19_short_circuit_attribution_nested.

(* outside that class the statement is false of the code: finding F104, with the failing inputs *)
Theorem C19_short_circuit_refuted_outside_class :
  (left_pure f104a = false /\ eval (fun _ => true) (fun _ => true) f104a = Panic 1%nat /\ reported f104a = nil) /\
  (left_pure f104b = false /\ eval (fun _ => true) (fun _ => false) f104b = Panic 1%nat /\ reported f104b = nil).
Proof. exact short_circuit_refuted_outside_class. Qed.
Print Assumptions C19_short_circuit_refuted_outside_class.

(* the statement the expression belongs to: what FOLLOWS it is untouched by the checks inside it (finding F100, repaired;
   `before_F100_refuted` in the proofs shows the earlier behaviour losing `b := c && p != nil; return p.f`) *)
Theorem C19_code_after_the_statement_is_untouched : forall e after c, In c after -> In c (proc_stmt e after).
Proof. exact after_survives. Qed.
Print Assumptions C19_code_after_the_statement_is_untouched.
