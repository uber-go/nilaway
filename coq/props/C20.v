(* C20 -- Inferred nonnil-to-nonnil contracts are true and never hide a nil argument.
   Property theorems only (proved in proofs/ContractProofs.v, FlowProofs.v, WholeProofs.v).  Objects:
     infer_sem hf fd             (model/Contract.v) the strongest intraprocedural inference: every execution of the body
                                 from a non-nil parameter -- opaque conditions, call results and package-level variables
                                 free -- returns non-nil; NilAway's inference (functioncontracts/infer.go) is compared
                                 against it on every run (every contract the real tool infers must be accepted)
     contract_true prog fd       the run-time meaning: in program prog, started with a non-nil argument the function
                                 never returns nil (nor falls off its end), whatever the package-level variables hold
     analyze_program .. ctr ..   (model M7) calls of a contracted callee use call-site-specific parameter / result
                                 sites; the callee's triggers that start at its parameter or end at its result are
                                 duplicated per call site of the same package, those ending at the result controlled by
                                 the call-site parameter site *)
From Coq Require Import List.
From NM Require Import Engine MiniGo Flow Contract Infer.
From NP Require Import EngineMain FlowProofs ContractProofs WholeProofs InferSound InferLoop.
Import ListNotations.

(* an accepted contract is true of every execution of the function, in any program *)
Theorem C20_contract_true : forall prog hf fd, infer_sem hf fd = true -> contract_true prog fd.
Proof. exact infer_sem_sound. Qed.
Print Assumptions C20_contract_true.

(* with such contracts, a nil argument is never hidden: if no conflict is reported, no execution dereferences nil --
   in particular not the result of a contracted callee that was handed nil (literal, constant or variable) *)
Theorem C20_contracts_never_hide_nil : forall prog afuel hf ctr pk r st,
  analyze_program afuel ctr pk prog = Some r -> r_gsafe r = true -> r_clocal r = true -> r_nodel r = true ->
  wf_program prog = true -> impls_plain prog ctr = true ->
  (forall g fd, ctr g = true -> nth_error (p_funcs prog) g = Some fd -> infer_sem hf fd = true) ->
  pkg_run [] [] (all_triggers r) st -> conflicts st = [] ->
  forall fuel oracle, panic_of (run_program prog fuel oracle) = None.
Proof. exact whole_sound_inferred. Qed.
Print Assumptions C20_contracts_never_hide_nil.

(* the same for any true contracts, however they were obtained *)
Theorem C20_sound_for_true_contracts : forall prog afuel ctr pk r st,
  analyze_program afuel ctr pk prog = Some r -> r_gsafe r = true -> r_clocal r = true -> r_nodel r = true ->
  wf_program prog = true -> ctr_arity ctr 0 (p_funcs prog) = true -> impls_plain prog ctr = true ->
  (forall g fd, ctr g = true -> nth_error (p_funcs prog) g = Some fd -> contract_true prog fd) ->
  pkg_run [] [] (all_triggers r) st -> conflicts st = [] ->
  forall fuel oracle, panic_of (run_program prog fuel oracle) = None.
Proof. exact whole_sound. Qed.
Print Assumptions C20_sound_for_true_contracts.

(* the package-locality side condition is necessary (F4): x1 = p0.F1(x0); x1.V with nil x0 and a contracted
   func F1(p *T) *T { return p } of another package is clean and panics ... *)
Theorem C20_refuted_cross_package :
  exists prog r st fuel oracle,
    analyze_program 8 ctr1 two_pkgs prog = Some r /\ r_gsafe r = true /\ r_clocal r = false /\
    wf_program prog = true /\ ctr_arity ctr1 0 (p_funcs prog) = true /\
    pkg_run [] [] (all_triggers r) st /\ conflicts st = [] /\
    panic_of (run_program prog fuel oracle) = Some 1.
Proof. exact refuted_without_contract_locality. Qed.
Print Assumptions C20_refuted_cross_package.

(* ... while the same program with the callee in the caller's package is reported *)
Example C20_same_package_reported :
  exists r res, analyze_program 8 ctr1 one_pkg ex_xpkg = Some r /\ r_clocal r = true /\
    analyze_pkg all_exported 200 [] [] (all_triggers r) = Finished res /\ r_conflicts res <> [].
Proof. exact xpkg_local_reported. Qed.

(* non-vacuity: bodies the inference accepts and rejects (the rejected ones are the shapes of findings F23, F3) *)
Example C20_infer_examples :
  infer_sem 16 fd_id = true /\ infer_sem 16 fd_guarded_new = true /\
  infer_sem 16 fd_loop_overwrite = false /\ infer_sem 16 fd_opaque_nil = false.
Proof. exact infer_examples. Qed.

(* ---- the inference algorithm itself (model M10 = transcription of functioncontracts/infer.go, tied to the code by a
   two-directional correspondence on every run) ----
   infer_checked F fuel = the transcribed inferContracts says contract(nonnil -> nonnil) and the final state of the work
   list passed the post-fixpoint check `stable` (evaluated by the correspondence suite on every function it sees;
   implied, see C20_worklist_ends_in_postfixpoint).
   reach F b e = an execution of the abstract SSA function F reaches block b with environment e (e v = true: v is
   nil now), under nilaway's notion of nilness: see proofs/InferSound.v.  Every state keeps wrapper values
   (ChangeInterface, MakeInterface, Slice, append(x), ...) in step with their operand: exact for `semiplain` functions
   (counted by the suite), an idealisation justified by SSA dominance for the others.
   Then: whenever an execution returns r with a non-nil contracted parameter, r is non-nil. *)
Theorem C20_inferred_contract_true : forall F fuel, infer_checked F fuel = true ->
  forall b e r, reach F b e -> ib_ret (block F b) = Some r -> e (if_param F) = false -> e r = false.
Proof. exact infer_checked_is_sound. Qed.
Print Assumptions C20_inferred_contract_true.

(* the work list always ends in a post-fixpoint (control-flow graphs whose entry block has no predecessor and in which no
   block has the same predecessor twice), so the validation is implied: what the transcribed inferContracts returns is
   true.  `infer` is what the two-directional correspondence compares with the real inferContracts on every run. *)
Theorem C20_worklist_ends_in_postfixpoint : forall F, wf_cfg F = true ->
  forall fuel s, loop F fuel {| i_sets := []; i_seen := [] |} [0] = IDone s -> stable F s = true.
Proof. exact loop_stable. Qed.
Print Assumptions C20_worklist_ends_in_postfixpoint.

Theorem C20_inference_is_sound : forall F fuel,
  wf_fn F = true -> wf_cfg F = true -> infer F fuel = IInferred ->
  forall b e r, reach F b e -> ib_ret (block F b) = Some r -> e (if_param F) = false -> e r = false.
Proof. exact infer_sound. Qed.
Print Assumptions C20_inference_is_sound.

(* the inference accepts a guard and a guarded loop, and (since the repair of F45) not the function that returns nil
   when two fresh allocations differ -- which the semantics can execute *)
Example C20_infer_checked_examples :
  infer_checked ex_guard 100 = true /\ infer ex_guard 100 = IInferred /\
  infer_checked ex_loop 100 = true /\ infer ex_loop 100 = IInferred /\
  infer_checked ex_distinct 100 = false /\ infer ex_distinct 100 = INotInferred.
Proof. exact infer_checked_examples. Qed.
Example C20_infer_wrapper_example :
  infer_checked ex_iface 100 = true /\ infer ex_iface 100 = IInferred /\ plain ex_iface = false /\ semiplain ex_iface = true.
Proof. exact infer_wrapper_example. Qed.
Example C20_semantics_refutes_distinct :
  exists b e r, reach ex_distinct b e /\ ib_ret (block ex_distinct b) = Some r /\ e (if_param ex_distinct) = false /\ e r = true.
Proof. exact distinct_returns_nil. Qed.
Example C20_theorem_not_vacuous :
  exists b e r, reach ex_guard b e /\ ib_ret (block ex_guard b) = Some r /\ e (if_param ex_guard) = false.
Proof. exact guard_reaches_return. Qed.
