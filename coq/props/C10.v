(* C10 -- Explicit nilable/nonnil annotations are binding (engine level, model M1). *)
From Coq Require Import List.
From NM Require Import Engine EngineSpec.
From NP Require Import EngineBasics EngineMain EngineTerm AnnotProofs.
Import ListNotations.

(* inference never overrides or drops an annotation: an annotated site of the package ends with exactly the
   annotated verdict, explained by the annotation itself, whatever triggers and imported facts say.
   Hypotheses: one annotation per site; annotated sites are the package's own (no dependency fact mentions them) *)
Theorem C10_annotation_wins : forall facts annots ts st,
  pkg_run facts annots ts st -> NoDup (map fst annots) ->
  (forall s, In s (map fst annots) -> ~ In s (fact_sites facts)) ->
  forall s b, In (s, b) annots -> det_l (mp st) s = Some (EAnnot b s).
Proof. exact annotation_wins. Qed.
Print Assumptions C10_annotation_wins.

(* nil flowing into a nonnil-annotated site is reported *)
Theorem C10_nonnil_reported : forall facts annots ts st s,
  pkg_run facts annots ts st -> In (s, false) annots -> nilr (pkg_csys facts annots ts) s -> conflicts st <> [].
Proof. exact annotated_nonnil_reported. Qed.
Print Assumptions C10_nonnil_reported.

(* an unguarded use (a path to a non-nil requirement) of a nilable-annotated site is reported *)
Theorem C10_nilable_reported : forall facts annots ts st s,
  pkg_run facts annots ts st -> In (s, true) annots -> nonr (pkg_csys facts annots ts) s -> conflicts st <> [].
Proof. exact annotated_nilable_reported. Qed.
Print Assumptions C10_nilable_reported.

(* annotating a site nilable adds no diagnostic when no path leads from it to a non-nil requirement (all its
   dereferences are guarded).  Partial: stated for packages without contract-controlled triggers; with them the
   annotation of a call-site argument legitimately activates the callee's nil-returning paths (finding F14). *)
Theorem C10_nilable_guarded_silent_partial : forall facts annots ts st st' s,
  pkg_run facts annots ts st -> pkg_run facts ((s, true) :: annots) ts st' ->
  conflicts st = [] -> ~ nonr (pkg_csys facts ((s, true) :: annots) ts) s ->
  (forall k a, In (k, a) (ctld (pkg_csys facts annots ts)) -> False) ->
  conflicts st' = [].
Proof. exact nilable_annotation_silent. Qed.
Print Assumptions C10_nilable_guarded_silent_partial.

(* non-vacuity: the running example has an annotation on its own site 6 and satisfies the hypotheses *)
Example C10_example : NoDup (map fst ex_annots) /\ (forall s, In s (map fst ex_annots) -> ~ In s (fact_sites ex_facts)).
Proof.
  split; [repeat constructor; auto|].
  intros s [<-|[]]. cbn. intros H. repeat (destruct H as [H|H]; [discriminate|]). destruct H.
Qed.
