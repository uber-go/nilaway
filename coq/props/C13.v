(* C13 -- Grouping never loses or alters a finding (model M2); pretty printing (model M15) at the end of the file. *)
From Coq Require Import List Permutation.
From NM Require Import Diag.
From NP Require Import DiagProofs.
Import ListNotations.

(* with grouping on, the conflicts shown are exactly those shown with grouping off: each appears once, either
   as a diagnostic or in one "other place(s)" list; nothing new appears *)
Theorem C13_partition : forall rs et cs,
  Permutation (flat_map members (diagnostics true rs et cs)) (map d_head (diagnostics false rs et cs)).
Proof. exact grouping_loses_nothing. Qed.
Print Assumptions C13_partition.

(* the stated count equals the length of the list *)
Theorem C13_count : forall d, shown_count d = length (shown_places d).
Proof. exact count_matches_list. Qed.
Print Assumptions C13_count.

(* every conflict listed under a diagnostic has that diagnostic's nil source (equal group key), and two
   diagnostics never have the same one *)
Theorem C13_same_source : forall rs et cs,
  Forall group_ok (diagnostics true rs et cs) /\ heads_distinct (diagnostics true rs et cs).
Proof. exact diagnostics_groups. Qed.
Print Assumptions C13_same_source.

(* the boolean key comparison used by the model decides equality of keys *)
Theorem C13_key_eq : forall a b, gkey_eqb a b = true <-> a = b.
Proof. exact gkey_eqb_eq. Qed.
Print Assumptions C13_key_eq.

(* ---- the key separates what the printed positions cannot (repairs of F56, F57; the key components are fed to the real
   engine by the hook and compared on every run) ---- *)
Theorem C13_same_key_same_sites : forall c c', c_nil c <> [] -> group_key c = group_key c' ->
  map (fun n => pos_key (n_site n)) (c_nil c) = map (fun n => pos_key (n_site n)) (c_nil c').
Proof. exact same_key_same_sites. Qed.
Theorem C13_same_key_same_source : forall c c' p p', c_nil c = [] -> c_nonnil c = [p] -> pos_key (n_ppos p) = None ->
  c_nil c' = [] -> c_nonnil c' = [p'] -> group_key c = group_key c' -> pos_key (c_src c) = pos_key (c_src c').
Proof. exact same_key_same_source. Qed.
Example C13_lookalike_files_not_grouped :
  let n f := {| n_ppos := mkpos 2 3; n_cpos := mkpos 2 3; n_prepr := 7; n_crepr := 8; n_site := mkpos f 3 |} in
  let c i f l := {| c_id := i; c_pos := mkpos 1 l; c_nil := [n f]; c_nonnil := [use_node l]; c_func := None; c_test := false; c_src := nopos |} in
  gkey_eqb (group_key (c 1 2 10)) (group_key (c 2 3 11)) = false /\ gkey_eqb (group_key (c 1 2 10)) (group_key (c 3 2 12)) = true.
Proof. exact lookalike_files_not_grouped. Qed.

(* Pretty-printing only inserts colour escape sequences and an `error: ` prefix: stripping them gives back the plain message
   (model M15, for every message that contains no ESC byte itself; tied to PrettyPrintErrorMessage by evaluating `pretty`
   inside Coq on the messages the real function renders) *)
From Coq Require Import NArith.
From NM Require Import Pretty.
From NP Require Import PrettyProofs.
Theorem C13_pretty_strip : forall m, escfree m -> strip SNormal (pretty m) = (error_prefix ++ m)%list.
Proof. exact pretty_strip. Qed.
Print Assumptions C13_pretty_strip.

(* the delimiter passes are invisible to the remover on EVERY byte string and from every state of the remover *)
Theorem C13_delimiter_pass_invisible : forall d co cc, safe d -> forallb is_param co = true -> forallb is_param cc = true ->
  forall l s, strip s (dpass d (esc co) (esc cc) Outside l) = strip s l.
Proof. intros d co cc Hd Hco Hcc l s. exact (proj1 (dpass_invisible d co cc Hd Hco Hcc l) s). Qed.
Print Assumptions C13_delimiter_pass_invisible.

(* non-vacuity: "(found NILABLE) x" is ESC-free and all of it is wrapped *)
Example C13_pretty_example :
  nil_pass (cons 40 (cons 102 (cons 111 (cons 117 (cons 110 (cons 100 (cons 32 (cons 78 (cons 73 (cons 76 (cons 65 (cons 66 (cons 76 (cons 69 (cons 41 (cons 32 (cons 120 nil)))))))))))))))))%N
  = (esc (cons 49 nil) ++ (cons 40 (cons 102 (cons 111 (cons 117 (cons 110 (cons 100 (cons 32 (cons 78 (cons 73 (cons 76 (cons 65 (cons 66 (cons 76 (cons 69 (cons 41 nil))))))))))))))) ++ esc (cons 48 nil) ++ (cons 32 (cons 120 nil)))%list%N.
Proof. vm_compute. reflexivity. Qed.
