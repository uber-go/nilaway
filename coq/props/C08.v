(* C08 -- The (value, error) convention is enforced at both ends.          PARTIAL: see the end of this header.
   Property theorems only (proved in proofs/FlowProofs.v, proofs/WholeProofs.v).  Objects (models M6/M7, error part):
     SReturn2 a e                return a, e   -- e: the literal nil, a fresh error, or an error variable
     SCall2 cs x xe f args       x, xe = f(args)  (either target may be blank)
     PGuard f cs xe / PChecked f cs / PUng f cs    the producers of result 0 of call cs of f: not yet checked (its error is
                                 in xe) / err == nil established / can never be checked (error overwritten or ignored).
                                 A use of an unchecked result is a use of nil ("lacking guarding", kind Always); uses
                                 are merged per (function, use): a checked and an unchecked result of the same function
                                 reaching one use count as unchecked (norm)
     analyze (SReturn2 a e)      the value result is a use at the function's result site only when the error is nil there
   Not in the model (hence partial): (value, ok) results, named results, error operands that
   are neither known nil nor known non-nil at the return (package-level sentinels: resolved by the engine from
   inferred verdicts), the always-safe deletion (modelled for the correspondence, excluded from the theorem by
   r_nodel = true). *)
From Coq Require Import List.
From NM Require Import Engine EngineSpec MiniGo Flow Nonce RichFlow.
From NP Require Import EngineMain FlowProofs WholeProofs NonceProofs RichFlowProofs.
Import ListNotations.

(* a program using the convention that analyses clean never panics -- in particular not on a guarded result *)
Theorem C08_clean_means_panic_free : forall prog afuel ctr pk r st,
  analyze_program afuel ctr pk prog = Some r -> r_gsafe r = true -> r_clocal r = true -> r_nodel r = true ->
  wf_program prog = true -> ctr_arity ctr 0 (p_funcs prog) = true -> impls_plain prog ctr = true ->
  (forall g fd, ctr g = true -> nth_error (p_funcs prog) g = Some fd -> contract_true prog fd) ->
  pkg_run [] [] (all_triggers r) st -> conflicts st = [] ->
  forall fuel oracle, panic_of (run_program prog fuel oracle) = None.
Proof. exact whole_sound. Qed.
Print Assumptions C08_clean_means_panic_free.

(* caller end: dereferencing a result that is unchecked on some path is a flow, whatever the callee does *)
Theorem C08_unchecked_use_is_reported : forall ALLs t,
  In t ALLs -> s_ctrl t = None -> kind_of (s_prod t) = KAlways -> s_cons t = CAlways ->
  has_flow (csys_of [] [] (map etrig ALLs)).
Proof. exact unchecked_is_flow. Qed.
Print Assumptions C08_unchecked_use_is_reported.

(* callee end: with a nil error the returned value is a use at the result site (so `return nil, nil` makes the site
   nil-able and every checked use of the result a flow); with a non-nil error it is not *)
Theorem C08_return_triggers : forall ng ctr sp f fuel e a,
  (exists r, analyze ng ctr sp f fuel (SReturn2 a ANil) e = Some r /\
             a_trig r = map (fun p => mk_trigger 0 p (CSite (SResult f))) (uprods e a)) /\
  (exists r, analyze ng ctr sp f fuel (SReturn2 a ANew) e = Some r /\ a_trig r = []).
Proof. exact return2_triggers. Qed.
Print Assumptions C08_return_triggers.

(* both ends on concrete programs: checked use of a convention-respecting callee: clean; unchecked use: reported;
   checked use of a callee that returns (nil, nil): reported; error overwritten before the check: reported *)
Example C08_both_ends :
  nconf ex_err_checked = Some 0 /\ nconf ex_err_unchecked = Some 1 /\
  nconf ex_err_callee_bad = Some 1 /\ nconf ex_err_overwritten = Some 1.
Proof. exact err_convention_both_ends. Qed.

(* direct forwarding `return g(args)`: the callee's result site feeds the forwarder's (so a callee that returns
   (nil, nil) is reported through any chain of forwarders) and a forwarder is never "always safe" *)
Theorem C08_forwarding_triggers : forall ng ctr sp f fuel e cs g args,
  exists r, analyze ng ctr sp f fuel (SRetCall cs g args) e = Some r /\
            In (mk_trigger 0 (PSite (SResult g)) (CSite (SResult f))) (a_trig r) /\ a_rsafe r = false /\ a_env r = None.
Proof. exact retcall_triggers. Qed.
Print Assumptions C08_forwarding_triggers.

Example C08_forwarding :
  nconf ex_fwd_ok = Some 0 /\ nconf ex_fwd_bad = Some 1 /\
  panic_of (run_program ex_fwd_bad 20 [true]) = Some 1 /\
  (forall o, In o [[true]; [false]] -> panic_of (run_program ex_fwd_ok 20 o) = None).
Proof. exact err_forwarding. Qed.

(* non-vacuity of the soundness theorem, and the reported programs do panic *)
Example C08_example :
  exists r res, analyze_program 8 no_ctr one_pkg ex_err_checked = Some r /\ r_gsafe r = true /\ r_clocal r = true /\
    r_nodel r = true /\ wf_program ex_err_checked = true /\
    analyze_pkg all_exported 200 [] [] (all_triggers r) = Finished res /\ r_conflicts res = [].
Proof. exact err_checked_premises. Qed.
Example C08_reported_programs_panic :
  panic_of (run_program ex_err_unchecked 20 [true]) = Some 1 /\
  panic_of (run_program ex_err_callee_bad 20 [true]) = Some 1 /\
  panic_of (run_program ex_err_overwritten 20 [true]) = Some 1.
Proof. exact err_reported_programs_panic. Qed.

(* ---- the guard-nonce sets (model M11 = guard/guard.go, tied by a correspondence on random operation sequences) ----
   The guards of a consume trigger are a set of nonces; the fixpoint iteration compares them with Eq, joins intersect
   them.  Eq is extensional equality, so a trigger that LOST a guard at a join is a change the iteration sees. *)
Theorem C08_nonce_eq_is_set_equality : forall g o, ns_eq g o = true <-> (forall x, In x g <-> In x o).
Proof. exact eq_spec. Qed.
Print Assumptions C08_nonce_eq_is_set_equality.
Theorem C08_nonce_eq_detects_a_lost_guard : forall g n, In n g -> ns_eq (ns_remove g [n]) g = false.
Proof. exact eq_detects_loss. Qed.
Theorem C08_nonce_intersection : forall g os x, In x (ns_inter g os) <-> In x g /\ (forall o, In o os -> In x o).
Proof. exact inter_spec. Qed.
Theorem C08_nonce_union : forall os g x, In x (ns_union g os) <-> In x g \/ (exists o, In o os /\ In x o).
Proof. exact union_spec. Qed.
Theorem C08_nonce_subset : forall g o, ns_subset g o = true <-> (forall x, In x g -> In x o).
Proof. exact subset_spec. Qed.
Theorem C08_nonce_add_remove : forall ns g x,
  (In x (ns_add g ns) <-> In x ns \/ In x g) /\ (In x (ns_remove g ns) <-> In x g /\ ~ In x ns).
Proof. intros; split; [apply add_spec|apply remove_spec]. Qed.
Example C08_nonce_example :
  nrun [[]; []; []] [OAdd 0 [1; 2; 3]; OAdd 1 [2; 3; 4]; OInter 2 0 [1]; OEq 2 0; OSubset 2 0; ORemove 0 [1]; OEq 2 0; OContains 1 4]
  = ([[2; 3]; [2; 3; 4]; [2; 3]], [false; true; true; true]).
Proof. exact nonce_example. Qed.

(* ---- how far a check reaches (model M13 = weakPropagateRichChecks / genPreds / propagateRichChecks, tied by a
   correspondence on random control-flow graphs) ----
   `x, err := f()` creates an effect in its block; a later `err != nil` test can discharge the guard of x only where the
   effect still holds.  propagate computes, for every block, the effects that hold at its end; Lost g rt e b says e is lost
   at b: b does not create it and (no live predecessor of b is reachable from the creating block, or b invalidates it, or it
   is lost at a live predecessor reachable from the creating block).  The result is exactly the complement of Lost -- the
   GREATEST solution: an effect is dropped only if some path from its creation really invalidates it (third clause of C08;
   finding F26 was the least solution, which loses every effect at the header of an enclosing loop). *)
Theorem C08_rich_checks_reach_exactly_where_not_lost : forall g fuel s,
  wf_rcfg g = true -> propagate g fuel = Some s ->
  exists rt, reach_table g = Some rt /\
    forall b e, b < nblocks g -> In e (effects g) -> (In e (at_ s b) <-> ~ Lost g rt e b).
Proof. exact propagate_is_gfp. Qed.
Print Assumptions C08_rich_checks_reach_exactly_where_not_lost.
Example C08_rich_checks_nested_loops :
  propagate (ex_nested []) 50 = Some [[7]; [7]; [7]; [7]; [7]] /\ propagate (ex_nested [7]) 50 = Some [[]; []; [7]; []; []] /\
  wf_rcfg (ex_nested []) = true.
Proof. exact propagate_examples. Qed.
